(** FuelProofs.v — the member-wise descent of structToStruct terminates: with by-value struct
    containment well-founded (a rank on the named types that decreases through every by-value
    struct member — what Go's rejection of invalid recursive types guarantees), fuel beyond the
    rank of the destination's type is never exhausted. *)
From Cvg Require Import Base GoTypes Dump Front Builder Pipeline.
From Cvg.proofs Require Import NoPanicProofs.
Open Scope N_scope.

(** convertible with [fails FFuel] *)
Definition is_fuel {A} (o : outcome A) : bool := match o with Fuel => true | _ => false end.

Section Measure.
  Variable d : dump.
  Variable rank : N -> nat.

  Notation ty_rank := (Pipeline.ty_rank rank).

  Fixpoint fields_rank (fs : list field) : nat :=
    match fs with [] => O | f :: fs' => Nat.max (ty_rank (f_type f)) (fields_rank fs') end.

  Lemma ty_rank_struct s fs : ty_rank (TStruct s fs) = S (fields_rank fs).
  Proof.
    cbn [ty_rank]. f_equal. induction fs as [|[n p e m t ft] fs IH]; [reflexivity|].
    cbn [fields_rank f_type]. now rewrite <- IH.
  Qed.

  Lemma field_rank_le f fs : In f fs -> (ty_rank (f_type f) <= fields_rank fs)%nat.
  Proof.
    induction fs as [|g fs IH]; [intros []|intros [<-|Hin]]; cbn [fields_rank]; [lia|]. specialize (IH Hin). lia.
  Qed.

  (** by-value struct containment is well-founded: the underlying type of a named type ranks below it *)
  Hypothesis Hrank : forall i n, get_named (d_env d) i = Some n -> (ty_rank (n_under n) < rank i)%nat.

  (** the measure: the rank of the type whose fields are written *)
  Definition mu (l : node) : nat := ty_rank (deref_ptr (expr_type l)).

  Lemma under_rank t : (ty_rank (under (d_env d) t) <= ty_rank t)%nat.
  Proof.
    destruct t; try apply le_n. cbn [under ty_rank].
    destruct (get_named (d_env d) _) eqn:En; [apply Nat.lt_le_incl, Hrank, En|apply Nat.le_0_l].
  Qed.

  Lemma struct_deref t : is_struct_type (d_env d) t = true -> deref_ptr t = t.
  Proof. unfold is_struct_type, under. destruct t; try reflexivity. discriminate. Qed.

  (** the measure decreases along the descent *)
  Lemma field_below L lf :
    In lf (field_nodes d L) -> is_struct_type (d_env d) (expr_type lf) = true -> (mu lf < mu L)%nat.
  Proof.
    unfold field_nodes, struct_fields, mu. intros Hin Hst. apply in_map_iff in Hin as (f & <- & Hf).
    cbn [expr_type] in *. rewrite (struct_deref _ Hst).
    pose proof (under_rank (deref_ptr (expr_type L))) as Hu.
    (* only a struct type has fields *)
    destruct (under (d_env d) _); try contradiction. rewrite ty_rank_struct in Hu. apply field_rank_le in Hf. lia.
  Qed.

  (** C14: structToStruct never runs out of fuel when the fuel exceeds the rank of the destination *)
  Theorem struct_to_struct_fuel_free o mpos fuel : forall L R args,
    (mu L < fuel)%nat -> avoids FFuel (struct_to_struct d o mpos fuel L R args).
  Proof.
    induction fuel as [|fuel IH]; intros L R args Hm; [lia|].
    apply struct_to_struct_step; [discriminate|]. intros lf R' Hin Hst. apply IH.
    pose proof (field_below L lf Hin Hst). lia.
  Qed.
End Measure.

Section PipelineNF.
  Variable d : dump.
  Hypothesis Hok : rank_ok_b d = true.
  Let rk := env_rank d.

  Lemma env_rank_decreases i n : get_named (d_env d) i = Some n -> (ty_rank rk (n_under n) < rk i)%nat.
  Proof.
    intros Hg. unfold rank_ok_b in Hok. apply andb_true_iff in Hok as [H1 _]. rewrite forallb_forall in H1.
    specialize (H1 (N.to_nat i)). rewrite N2Nat.id, Hg in H1. apply Nat.ltb_lt, H1, in_seq.
    split; [lia|]. apply nth_error_Some. unfold get_named in Hg. congruence.
  Qed.

  Lemma operands_below_fuel m t :
    In (me_decl m) (all_decls d) -> In t (operand_types m) -> (ty_rank rk (deref_ptr t) < build_fuel d)%nat.
  Proof.
    intros Hm Ht. unfold rank_ok_b in Hok. apply andb_true_iff in Hok as [_ H2].
    pose proof (forallb_flat_map _ _ _ _ H2 Hm) as H. rewrite forallb_forall in H. apply Nat.ltb_lt, H, Ht.
  Qed.

  Theorem run_pipeline_never_out_of_fuel : is_fuel (po_result (run_pipeline d)) = false.
  Proof.
    apply (run_pipeline_avoids d FFuel). intros m cs (Hin & _).
    apply create_function_avoids; [discriminate|]. intros L R args HL.
    apply (struct_to_struct_fuel_free d rk env_rank_decreases). exact (operands_below_fuel m _ Hin HL).
  Qed.
End PipelineNF.
