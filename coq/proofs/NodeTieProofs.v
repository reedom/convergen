(** NodeTieProofs.v — the expression nodes of the model (Builder.v: [node], [assign_expr],
    [matcher_expr], [obj_name], [expr_type], [returns_error]) ARE the Go code of
    pkg/builder/model/node.go and struct.go.
    gen/GoFuns.v (module GoNode) is regenerated on every run: the methods ObjName, ExprType,
    ReturnsError, AssignExpr, MatcherExpr (and ObjNullable, NullCheckExpr) of the interface
    Node, by cases over RootNode, ScalarNode, ConverterNode, TypecastEntry, StringerEntry,
    StructFieldNode, StructMethodNode, translated statement by statement.  go/types objects are
    the model's own: types.Type = [ty], *types.Var = [field], *types.Func = name + [sig],
    util.IsPtr = [is_ptr].  This file proves the model's functions equal to the translated ones
    on every node ([lower_node]: how the builder nests the Go nodes).  ScalarNode is never
    constructed by non-test code and has no counterpart in the model. *)
From Cvg Require Import Base GoLib GoTypes Options Builder Gen GoFuns.
From Cvg.proofs Require Import GenTieProofs.
Import GoNode.
Open Scope N_scope.

Section NodeTie.
  (** the name matcher inside a FieldConverter plays no part in the node methods: any value *)
  Variable matcher_of : field_converter -> NameMatcher_t.

  Definition lower_fc (c : field_converter) : FieldConverter_t :=
    {| FieldConverter_m := matcher_of c; FieldConverter_converter := fc_name c;
       FieldConverter_argType := fc_arg c; FieldConverter_retType := fc_ret c; FieldConverter_retError := fc_err c |}.

  Fixpoint lower_node (n : node) : Node_t :=
    match n with
    | NRoot name t => RootNode name t
    | NField p f => StructFieldNode (lower_node p) f
    | NMethod p name sg => StructMethodNode (lower_node p) {| gf_name := name; gf_sig := sg |}
    | NConv a c => ConverterNode (lower_node a) (lower_fc c)
    | NCast i t e => TypecastEntry (lower_node i) t e
    | NStringer i => StringerEntry (lower_node i)
    end.

  Lemma obj_name_tie n : Node_ObjName (lower_node n) = obj_name n.
  Proof. induction n as [name t|p IH f|p IH name sg|a IH c|i IH t e|i IH]; cbn [lower_node Node_ObjName obj_name]; auto. Qed.

  Lemma expr_type_tie n : Node_ExprType (lower_node n) = expr_type n.
  Proof.
    destruct n as [name t|p f|p name sg|a c|i t e|i]; cbn [lower_node Node_ExprType expr_type]; try reflexivity.
    cbn [gf_sig]. unfold go_nth_type. destruct (sg_rtys sg); reflexivity.
  Qed.

  Lemma returns_error_tie n : Node_ReturnsError (lower_node n) = returns_error n.
  Proof.
    destruct n as [name t|p f|p name sg|a c|i t e|i]; cbn [lower_node Node_ReturnsError returns_error]; try reflexivity.
    cbn [gf_sig].
    destruct (Nat.eqb_spec (List.length (sg_rtys sg)) 2) as [E|E].
    - rewrite E. reflexivity.
    - lia.
  Qed.

  Lemma assign_expr_tie n : Node_AssignExpr (lower_node n) = assign_expr n.
  Proof.
    induction n as [name t|p IH f|p IH name sg|a IH c|i IH t e|i IH]; cbn [lower_node Node_AssignExpr assign_expr];
      rewrite ?IH; try reflexivity.
    (* the converter call, which takes the address of a value argument when the converter wants a pointer *)
    rewrite expr_type_tie.
    reflexivity.
  Qed.

  Lemma matcher_expr_tie n : Node_MatcherExpr (lower_node n) = matcher_expr n.
  Proof.
    induction n as [name t|p IH f|p IH name sg|a IH c|i IH t e|i IH]; cbn [lower_node Node_MatcherExpr matcher_expr]; auto.
    (* a field and a method: no leading dot below the root *)
    all: cbv zeta; rewrite IH; destruct (matcher_expr p); reflexivity.
  Qed.
End NodeTie.

(** ** The chain builder node -> generator text, end to end in translated Go code: the text of a
    simple assignment is model.SimpleField{LHS: lhs.AssignExpr(), RHS: rhs.AssignExpr(), Error: rhs.ReturnsError()}.String()
    with every function in it the translated one. *)
Theorem simple_assignment_text_chain matcher_of l r :
  GoGen.Assignment_String
    (GoGen.SimpleField (Node_AssignExpr (lower_node matcher_of l)) (Node_AssignExpr (lower_node matcher_of r))
       (Node_ReturnsError (lower_node matcher_of r)))
  = assignment_string (ASimple l (RNode r) (returns_error r)).
Proof.
  rewrite !assign_expr_tie, returns_error_tie.
  change (GoGen.SimpleField (assign_expr l) (assign_expr r) (returns_error r))
    with (lower_assignment (ASimple l (RNode r) (returns_error r))).
  apply assignment_string_tie.
Qed.
