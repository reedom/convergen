(** ReProofs.v — the regexp parser of Re.v: the outcome class and the rest of the input do not
    depend on the flags in force nor on spare fuel; hence validity of a pattern does not
    depend on the "(?i)" prefix the case rule adds (C19). *)
From Coq Require Import String.
From Cvg Require Import Base Re.
Open Scope N_scope.

(** ** what a run decides: the outcome class and the rest of the input *)
Definition cls2 (r : pres (re * list N)) : pres (list N) :=
  match r with POk (_, rest) => POk rest | PErr => PErr | PUnsup => PUnsup | PFuel => PFuel end.
Definition cls3 (r : pres (re * list N * flags)) : pres (list N) :=
  match r with POk (_, rest, _) => POk rest | PErr => PErr | PUnsup => PUnsup | PFuel => PFuel end.
(** what the parser looks at of the pending atom: whether there is one, and whether it is already repeated *)
Definition cur_sim (c1 c2 : atom_state) : Prop :=
  match c1, c2 with
  | NoAtom, NoAtom => True
  | HasAtom _ b1, HasAtom _ b2 => b1 = b2
  | _, _ => False
  end.

Definition hdr_kind (h : ghdr) : N := match h with GFlagsOnly _ => 0 | GGroup _ => 1 | GBad => 2 end.

Lemma hdr_sim : forall s f1 f2 neg sn sf,
  hdr_kind (fst (parse_flags_hdr s f1 neg sn sf)) = hdr_kind (fst (parse_flags_hdr s f2 neg sn sf)) /\
  snd (parse_flags_hdr s f1 neg sn sf) = snd (parse_flags_hdr s f2 neg sn sf).
Proof.
  induction s as [|c s IH]; intros f1 f2 neg sn sf; [split; reflexivity|].
  cbn [parse_flags_hdr].
  (* the flags are only stored in the header, never scrutinised *)
  repeat match goal with |- context [match ?x with _ => _ end] => destruct x end.
  all: first [apply IH | split; reflexivity].
Qed.

(** a parenthesised group as [parse_seq] reads it (its local [group]): the alternatives, the closing ')',
    the rest of the sequence *)
Definition group_body (U : utables) (n : nat) (f : flags) (d : nat) (flush : re) (fin : flags) (body : list N)
  : pres (re * list N * flags) :=
  match parse_altn U n fin body (S d) with
  | POk (r, rest) =>
      match is_rparen rest with
      | Some rest' => parse_seq U n f rest' d flush (HasAtom r false)
      | None => PErr
      end
  | PErr => PErr | PUnsup => PUnsup | PFuel => PFuel
  end.

(** [x2] has the outcome class and the rest of [x1], unless [x1] ran out of fuel: the cases.  The lemmas state this
    as [cls x1 <> PFuel -> cls x2 = cls x1], which passes under an [if] and is what their users rewrite with; these
    views are for the case analyses inside the proofs. *)
Inductive sim2 : pres (re * list N) -> pres (re * list N) -> Prop :=
| sim2_ok r1 r2 rest : sim2 (POk (r1, rest)) (POk (r2, rest))
| sim2_err : sim2 PErr PErr
| sim2_unsup : sim2 PUnsup PUnsup
| sim2_fuel x2 : sim2 PFuel x2.

Inductive sim3 : pres (re * list N * flags) -> pres (re * list N * flags) -> Prop :=
| sim3_ok r1 r2 rest f1 f2 : sim3 (POk (r1, rest, f1)) (POk (r2, rest, f2))
| sim3_err : sim3 PErr PErr
| sim3_unsup : sim3 PUnsup PUnsup
| sim3_fuel x2 : sim3 PFuel x2.

Lemma sim2_of x1 x2 : (cls2 x1 <> PFuel -> cls2 x2 = cls2 x1) -> sim2 x1 x2.
Proof.
  destruct x1 as [[r1 s1]| | |]; [| | |constructor]; intros H; specialize (H ltac:(discriminate));
    destruct x2 as [[r2 s2]| | |]; try discriminate H; [injection H as ->|..]; constructor.
Qed.

Lemma sim3_of x1 x2 : (cls3 x1 <> PFuel -> cls3 x2 = cls3 x1) -> sim3 x1 x2.
Proof.
  destruct x1 as [[[r1 s1] g1]| | |]; [| | |constructor]; intros H; specialize (H ltac:(discriminate));
    destruct x2 as [[[r2 s2] g2]| | |]; try discriminate H; [injection H as ->|..]; constructor.
Qed.

Lemma sim3_if (c : bool) a1 b1 a2 b2 :
  (cls3 a1 <> PFuel -> cls3 a2 = cls3 a1) -> (cls3 b1 <> PFuel -> cls3 b2 = cls3 b1) ->
  cls3 (if c then a1 else b1) <> PFuel -> cls3 (if c then a2 else b2) = cls3 (if c then a1 else b1).
Proof. now destruct c. Qed.

(** The two sides of a step of [parse_seq] branch alike.  A scrutinee mentions neither the flags nor
    the accumulator, so it is the same term on both sides; except the header of a "(?flags" group, of
    which the flags decide neither the kind nor the rest ([hdr_sim]), and the pending atom, of which
    only what [cur_sim] keeps is looked at. *)
Ltac split_head :=
  match goal with
  | |- cls3 (if _ then _ else _) <> PFuel -> _ => apply sim3_if
  | |- cls3 (match ?x with _ => _ end) <> PFuel -> cls3 (match ?x with _ => _ end) = _ => destruct x
  | |- cls3 (match parse_flags_hdr ?s ?f1 ?n ?a ?b with _ => _ end) <> PFuel ->
       cls3 (match parse_flags_hdr ?s ?f2 ?n ?a ?b with _ => _ end) = _ =>
      let Hk := fresh in let Hr := fresh in
      destruct (hdr_sim s f1 f2 n a b) as [Hk Hr];
      destruct (parse_flags_hdr s f1 n a b) as [[?|?|] ?], (parse_flags_hdr s f2 n a b) as [[?|?|] ?];
      try discriminate Hk; cbn [snd] in Hr; subst
  | Hc : cur_sim ?c1 ?c2 |- cls3 (match ?c1 with NoAtom => _ | _ => _ end) <> PFuel -> _ =>
      destruct c1 as [|? []], c2 as [|? []]; try contradiction Hc; try discriminate Hc
  end.

Section Step.
  Variable U : utables.
  Variables n1 n2 : nat.
  Hypothesis Haltn : forall f1 f2 s d,
    cls2 (parse_altn U n1 f1 s d) <> PFuel -> cls2 (parse_altn U n2 f2 s d) = cls2 (parse_altn U n1 f1 s d).

  (** a step of [parse_altn]; the two inputs may differ as long as the sequences read from them agree *)
  Lemma altn_step_sim f1 f2 s1 s2 d :
    (cls3 (parse_seq U n1 f1 s1 d Eps NoAtom) <> PFuel ->
     cls3 (parse_seq U n2 f2 s2 d Eps NoAtom) = cls3 (parse_seq U n1 f1 s1 d Eps NoAtom)) ->
    cls2 (parse_altn U (S n1) f1 s1 d) <> PFuel ->
    cls2 (parse_altn U (S n2) f2 s2 d) = cls2 (parse_altn U (S n1) f1 s1 d).
  Proof.
    intros Hs. cbn [parse_altn].
    destruct (sim3_of _ _ Hs) as [r1 r2 rest f1' f2'| | |x2]; [|reflexivity..|now intros []].
    destruct rest as [|c rest1]; [reflexivity|]. destruct (c =? 124); [|reflexivity].
    destruct (sim2_of _ _ (Haltn f1' f2' rest1 d)); [reflexivity..|now intros []].
  Qed.

  Hypothesis Hseq : forall f1 f2 s d a1 a2 c1 c2, cur_sim c1 c2 ->
    cls3 (parse_seq U n1 f1 s d a1 c1) <> PFuel -> cls3 (parse_seq U n2 f2 s d a2 c2) = cls3 (parse_seq U n1 f1 s d a1 c1).

  Lemma group_sim fi1 fi2 f1 f2 d a1 a2 body :
    cls3 (group_body U n1 f1 d a1 fi1 body) <> PFuel ->
    cls3 (group_body U n2 f2 d a2 fi2 body)
    = cls3 (group_body U n1 f1 d a1 fi1 body).
  Proof.
    unfold group_body.
    destruct (sim2_of _ _ (Haltn fi1 fi2 body (S d))) as [r1 r2 rest| | |x2]; [|reflexivity..|now intros []].
    destruct (is_rparen rest); [now apply Hseq|reflexivity].
  Qed.

  Lemma seq_step_sim f1 f2 s d a1 a2 c1 c2 :
    cur_sim c1 c2 ->
    cls3 (parse_seq U (S n1) f1 s d a1 c1) <> PFuel ->
    cls3 (parse_seq U (S n2) f2 s d a2 c2) = cls3 (parse_seq U (S n1) f1 s d a1 c1).
  Proof.
    intros Hc. cbn [parse_seq].
    repeat split_head.
    (* what is left returns the same on both sides, or continues by a call on the same input *)
    all: first [ reflexivity | now apply Hseq | apply group_sim ].
  Qed.
End Step.


Theorem parse_sim U : forall fuel1,
  (forall fuel2 f1 f2 s d, (fuel1 <= fuel2)%nat ->
     cls2 (parse_altn U fuel1 f1 s d) <> PFuel ->
     cls2 (parse_altn U fuel2 f2 s d) = cls2 (parse_altn U fuel1 f1 s d)) /\
  (forall fuel2 f1 f2 s d a1 a2 c1 c2, (fuel1 <= fuel2)%nat -> cur_sim c1 c2 ->
     cls3 (parse_seq U fuel1 f1 s d a1 c1) <> PFuel ->
     cls3 (parse_seq U fuel2 f2 s d a2 c2) = cls3 (parse_seq U fuel1 f1 s d a1 c1)).
Proof.
  induction fuel1 as [|n1 [IHa IHs]].
  - split; intros; cbn in *; congruence.
  - split.
    + intros fuel2 f1 f2 s d Hle. destruct fuel2 as [|n2]; [lia|].
      apply altn_step_sim.
      * intros. apply IHa; [lia|assumption].
      * apply IHs; [lia|exact I].
    + intros fuel2 f1 f2 s d a1 a2 c1 c2 Hle Hc. destruct fuel2 as [|n2]; [lia|].
      apply seq_step_sim; [| |exact Hc].
      * intros. apply IHa; [lia|assumption].
      * intros. apply IHs; [lia|assumption|assumption].
Qed.

Lemma decode_ascii b s : b < 128 -> decode (b :: s) = b :: decode s.
Proof.
  intros Hb. unfold decode. cbn [List.length decode_aux decode_rune].
  apply N.ltb_lt in Hb. rewrite Hb. reflexivity.
Qed.

Lemma encode_ascii b l : b < 128 -> encode (b :: l) = b :: encode l.
Proof.
  intros Hb. unfold encode. cbn [List.map]. unfold encode_rune.
  assert (E1 : ((55296 <=? b) && (b <=? 57343) || (1114111 <? b)) = false).
  { apply orb_false_iff. split; [apply andb_false_iff; left; apply N.leb_gt; lia|apply N.ltb_ge; lia]. }
  rewrite E1. apply N.ltb_lt in Hb. rewrite Hb. reflexivity.
Qed.

Definition pclass {A} (r : pres A) : N := match r with POk _ => 0 | PErr => 1 | PUnsup => 2 | PFuel => 3 end.

(** The prefixed run spends one step of [parse_seq] on the flag group and is then a run on [s] with
    the flag set. *)
Lemma case_prefix_altn U n1 n2 f s d :
  (0 < n1 < n2)%nat -> cls2 (parse_altn U n1 f s d) <> PFuel ->
  cls2 (parse_altn U n2 f (40 :: 63 :: 105 :: 41 :: s) d) = cls2 (parse_altn U n1 f s d).
Proof.
  intros Hlt. destruct n1 as [|n]; [lia|]. destruct n2 as [|[|m]]; try lia.
  apply altn_step_sim.
  - intros. apply (parse_sim U n); [lia|assumption].
  - change (parse_seq U (S m) f (40 :: 63 :: 105 :: 41 :: s) d Eps NoAtom)
      with (parse_seq U m {| fl_i := true; fl_m := fl_m f; fl_s := fl_s f |} s d Eps NoAtom).
    apply (parse_sim U n); [lia|exact I].
Qed.

Theorem case_prefix_keeps_validity U e :
  parse_re U e <> PFuel -> pclass (parse_re U (s2b "(?i)" ++ e)) = pclass (parse_re U e).
Proof.
  change (s2b "(?i)" ++ e) with (40 :: 63 :: 105 :: 41 :: e). unfold parse_re.
  (* four ASCII bytes pass through decode and encode as they are: the UTF-8 round-trip test is that of [e] *)
  rewrite !decode_ascii, !encode_ascii by lia. cbn [str_eqb N.eqb Pos.eqb andb].
  destruct (negb (str_eqb (encode (decode e)) e)); [reflexivity|].
  set (x := parse_altn U _ flags0 (decode e) 0). set (x' := parse_altn U _ flags0 (_ :: _) 0). intros Hn.
  assert (Hs : sim2 x x') by (apply sim2_of, case_prefix_altn; cbn [List.length]; lia).
  clearbody x x'. destruct Hs as [r r' rest| | |x']; [now destruct rest|reflexivity..|now elim Hn].
Qed.
