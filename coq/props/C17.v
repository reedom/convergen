(** C17 — exactly the marked interfaces of the input file are converted. *)
From Cvg Require Import Base Dump Front Pipeline.
From Cvg.gen Require Extracted.
From Cvg.proofs Require Import FrontProofs HeaderProofs.
Open Scope N_scope.

(** Whenever findConvergenEntries succeeds: (1) every entry is an interface
    declared in the input file (interfaces of sibling files are never entries,
    even when marked); (2) an interface named Convergen in the
    input file is always an entry. *)
Theorem C17_selection :
  forall d st es st' ev,
    find_entries_loop d (d_ifaces d) st [] = (Ok (es, st'), ev) ->
    (forall e, In e es -> In (ie_decl e) (d_ifaces d) /\ if_in_src (ie_decl e) = true) /\
    (forall i, In i (d_ifaces d) -> if_in_src i = true -> str_eqb (if_name i) Extracted.intf_name = true ->
               exists e, In e es /\ ie_decl e = i).
Proof.
  intros d st es st' ev H. apply find_entries_loop_ok in H as (new & -> & H1 & H2).
  split; [|exact H2]. intros e He. destruct (H1 e He) as (? & ? & _). auto.
Qed.
Print Assumptions C17_selection.

(** A file with no converter interface is rejected: success implies a non-empty entry list. *)
Theorem C17_none_rejected :
  forall d st es st' ev, find_entries d st = (Ok (es, st'), ev) -> es <> [].
Proof. intros d st es st' ev H. exact (proj1 (find_entries_ok d _ _ _ _ H)). Qed.
Print Assumptions C17_none_rejected.

(** One function per method of an entry and nothing else: the block of an entry
    has exactly as many functions as the interface has methods (Pipeline.create_blocks). *)
Theorem C17_one_function_per_method :
  forall d st ms fs ev, create_functions d st ms = (Ok fs, ev) -> List.length fs = List.length ms.
Proof.
  intros d st ms fs ev H. apply create_functions_ok in H. induction H; cbn [List.length]; congruence.
Qed.
Print Assumptions C17_one_function_per_method.
