(** TypedProofs.v — the typing side-conditions hold for EVERY entry structToStruct returns, at
    any nesting depth (C01): each assignment's right-hand side is the literal the user wrote, or
    an expression that castNode fitted to the assigned field's type (assignable as it stands, a
    String() call opted in, or a conversion opted in between convertible types), and each slice
    block copies between element types that are identical and basic (copy), assignable (loop)
    or convertible under :typecast (converting loop).  Section Decided (C06): every accessible field gets
    exactly the answer of the precedence chain for it, in field order. *)
From Cvg Require Import Base GoTypes Dump Options Builder.
From Cvg.proofs Require Import BuilderProofs MatchProofs.
Open Scope N_scope.

Section Typed.
  Variable d : dump.
  Variable o : options.
  Variable mpos : position.
  Let E := d_env d.

  Inductive typed_entry : assignment -> Prop :=
  | TESkip l : typed_entry (ASkip l)
  | TENoMatch l : typed_entry (ANoMatch l)
  | TESimple l src n e : cast_shape d o src (expr_type l) n -> typed_entry (ASimple l (RNode n) e)
  | TELiteral l t e : typed_entry (ASimple l (RLiteral t) e)
  | TENest cs : Forall typed_entry cs -> typed_entry (ANest cs)
  | TESlice l r t le re :
      slice_elem (expr_type l) = Some le -> slice_elem (expr_type r) = Some re ->
      assignable E re le = true -> is_basic re = true -> identical false le re = true ->
      typed_entry (ASlice l r t)
  | TESliceLoop l r t le re :
      slice_elem (expr_type l) = Some le -> slice_elem (expr_type r) = Some re ->
      assignable E re le = true -> typed_entry (ASliceLoop l r t)
  | TESliceCast l r t c le re :
      slice_elem (expr_type l) = Some le -> slice_elem (expr_type r) = Some re ->
      o_typecast o = true -> convertible E re le = true -> typed_entry (ASliceCast l r t c).

  Theorem struct_to_struct_typed fuel : forall L R args l ev,
    struct_to_struct d o mpos fuel L R args = (Ok l, ev) -> Forall typed_entry l.
  Proof.
    intros L R args l ev H. apply yields_intro in H. revert H.
    apply (struct_to_struct_ind d o mpos ev
             (fun _ r => match r with Some a => typed_entry a | None => True end) (fun _ _ l => Forall typed_entry l)).
    (* the cases: a leaf entry; a descent; no field left; a hidden field; a field with its answer *)
    - intros f a [ | | |src n e Hn|r a0 []]; econstructor; eassumption.
    - intros f [|c cs] _ Hc; [exact I|now constructor].
    - constructor.
    - auto.
    - intros L0 f fs [a|] l0 _ Hr Hl; [now constructor|exact Hl].
  Qed.
End Typed.

Section Decided.
  Variable d : dump.
  Variable o : options.
  Variable mpos : position.

  Definition opt_list {A} (x : option A) : list A := match x with Some a => [a] | None => [] end.

  Lemma fields_loop_spec mf L : forall fs l ev,
    fields_loop d mf L fs = (Ok l, ev) ->
    exists rs, Forall2 (fun lf r => exists e, mf lf = (Ok r, e))
                 (List.filter (fun f => is_field_accessible d L (obj_name f)) fs) rs /\
               l = flat_map opt_list rs.
  Proof.
    induction fs as [|f fs IH]; intros l ev H; cbn [fields_loop] in H.
    - apply ret_ok in H as [<- _]. exists []. split; constructor.
    - cbn [List.filter]. destruct (is_field_accessible d L (obj_name f)); cbn [negb] in H.
      + apply rbind_ok in H as (a & e1 & e2 & Ha & H & _).
        apply rbind_ok in H as (rest & e3 & e4 & Hr & H & _).
        apply ret_ok in H as [<- _]. destruct (IH _ _ Hr) as (rs & Hf & ->).
        exists (a :: rs). split; [constructor; [eauto|exact Hf]|]. destruct a; reflexivity.
      + exact (IH _ _ H).
  Qed.

  (** every accessible field of the destination gets exactly the answer of matchStructFieldAndStruct
      (skip > :conv > :map > $-map > :literal > name match) for it, in field order *)
  Theorem struct_to_struct_decided fuel L R args l ev :
    struct_to_struct d o mpos (S fuel) L R args = (Ok l, ev) ->
    exists rs, Forall2 (fun lf r => exists e, match_field d o mpos fuel lf R args = (Ok r, e))
                 (List.filter (fun f => is_field_accessible d L (obj_name f)) (field_nodes d L)) rs /\
               l = flat_map opt_list rs.
  Proof. cbn [struct_to_struct]. intros H. exact (fields_loop_spec _ _ _ _ _ H). Qed.
End Decided.
