(** C12 — regeneration ignores whatever is already at the output path. *)
From stdpp Require Import gmap.
From Cvg Require Import Cli Run.
From Cvg.proofs Require Import CliProofs RunProofs.

(** Hypothesis made explicit by the type of [gen]: the loader/pipeline oracle is
    applied to the file system *with the output path deleted* (Run.run). That is
    what parser.NewParser's ParseFile hook implements; the part of `go list`
    that still opens the stale file is runtime behaviour exercised by the
    correspondence runs only (DESIGN.md, C12). *)

(** Whatever bytes [x] the output path holds, exit status, stdout and the bytes
    written are those of the run on an empty path. *)
Theorem C12_out_irrelevant :
  forall gen can_write (c : config) (f : fs) (x : list N),
    snd (run gen can_write c (<[c_output c := x]> f)) = snd (run gen can_write c (delete (c_output c) f)).
Proof. intros. apply run_snd_delete. now rewrite delete_insert_delete, delete_idemp. Qed.
Print Assumptions C12_out_irrelevant.

(** Running twice in a row changes nothing (log-less configuration). *)
Theorem C12_idempotent :
  forall gen can_write (c : config) (f : fs),
    c_log c = [] ->
    fst (run gen can_write c (fst (run gen can_write c f))) = fst (run gen can_write c f) /\
    snd (run gen can_write c (fst (run gen can_write c f))) = snd (run gen can_write c f).
Proof.
  intros gen cw c f Hl.
  assert (Hs : snd (run gen cw c (fst (run gen cw c f))) = snd (run gen cw c f))
    by now apply run_snd_delete, run_delete_output.
  split; [|exact Hs]. rewrite (run_fst _ _ c (fst _)), Hs, (run_fst _ _ c f).
  destruct (run_nolog_effects gen cw c f Hl) as [->|[code ->]]; [reflexivity|apply insert_insert].
Qed.
Print Assumptions C12_idempotent.

(** An interrupted or corrupted output (any bytes [x]) is repaired by running again. *)
Theorem C12_repair :
  forall gen can_write (c : config) (f : fs) (x : list N),
    c_log c = [] -> c_dry c = false ->
    r_status (snd (run gen can_write c f)) = 0%N ->
    fst (run gen can_write c (<[c_output c := x]> (fst (run gen can_write c f)))) = fst (run gen can_write c f).
Proof.
  intros gen cw c f x Hl Hd Hs.
  assert (E : snd (run gen cw c (<[c_output c := x]> (fst (run gen cw c f)))) = snd (run gen cw c f)).
  { apply run_snd_delete. rewrite delete_insert_delete. now apply run_delete_output. }
  rewrite (run_fst _ _ c (<[_ := _]> _)), E, (run_fst _ _ c f).
  (* the successful, non-dry, log-less run has one effect: the write of the code *)
  destruct (run_success gen cw c f Hd Hs) as (code & _ & ->). rewrite log_effects_nolog by exact Hl. cbn.
  now rewrite !insert_insert.
Qed.
Print Assumptions C12_repair.

(** Over any history of hand edits (sources, output path, anything) and runs,
    every successful run leaves gen(current sources) at the output path. *)
Theorem C12_history :
  forall gen can_write (c : config) (steps : list step) (f : fs),
    c_log c = [] -> c_dry c = false ->
    let f' := fold_left (do_step gen can_write) steps f in
    r_status (snd (run gen can_write c f')) = 0%N ->
    out_consistent gen c (fst (run gen can_write c f')).
Proof. intros. now apply run_establishes. Qed.
Print Assumptions C12_history.

Example C12_example :
  let c := {| c_input := [1]; c_output := [2]; c_log := []; c_dry := false; c_prints := false |} in
  let gen := fun (f : fs) (_ _ : path) => match f !! [1] with Some b => GenCode (b ++ b) | None => GenFail end in
  let f : fs := <[[1] := [7]]> (<[[2] := [66; 66]]> ∅) in
  let r := run gen (fun _ => true) c f in
  r_status (snd r) = 0%N /\ fst r !! [2] = Some [7; 7].
Proof. vm_compute. repeat split. Qed.
