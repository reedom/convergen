(** DeterminismProofs.v — the iteration order of the import-name map, a Go map, as a parameter:
    the lookup of an unambiguous name does not depend on it (C13). *)
From Coq Require Import Permutation.
From Cvg Require Import Base.
Open Scope N_scope.

(** find over any permutation of a table gives the same answer when at most one entry satisfies the predicate *)
Lemma find_permutation {A} (p : A -> bool) l1 l2 :
  Permutation l1 l2 ->
  (forall y z, In y l1 -> In z l1 -> p y = true -> p z = true -> y = z) ->
  find p l1 = find p l2.
Proof.
  induction 1 as [|x l l' HP IH|x y l|l l' l'' HP IH HP' IH']; intros U; simpl.
  - reflexivity.
  - rewrite IH; [reflexivity|]. intros y z Hy Hz. apply U; now right.
  - (* two entries change places: if both satisfy [p], they are the same entry *)
    destruct (p y) eqn:Ey, (p x) eqn:Ex; try reflexivity. f_equal. apply U; simpl; auto.
  - rewrite IH, IH'; [reflexivity| |exact U]. intros y z Hy Hz. apply U; now rewrite HP.
Qed.

(** LookupPath under an arbitrary iteration order of the import table *)
Definition lookup_path_in (table : list (str * str)) (name : str) : option str :=
  match find (fun pn => str_eqb (snd pn) name) table with
  | Some pn => Some (fst pn)
  | None => None
  end.

Definition unambiguous (table : list (str * str)) (name : str) : Prop :=
  forall y z, In y table -> In z table -> str_eqb (snd y) name = true -> str_eqb (snd z) name = true -> y = z.
