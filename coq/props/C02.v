(** C02 — generated functions copy exactly the matched values and touch nothing else.
    Value-level semantics (ValSem.v): the destination object is a tree of by-value
    structs; the body's assignment list is executed over it; right-hand sides are
    evaluated by an oracle [ev] over the unmodified operands (user functions are
    pure oracles; nothing in the body writes a source — the state of [exec_all]
    is the destination alone). *)
From Coq Require Import String.
From Cvg Require Import Base GoTypes Builder ValSem.
From Cvg.proofs Require Import PartitionProofs ValSemProofs SeparationProofs.
Open Scope N_scope.

(** Frame ("touches nothing else"): every path of the destination that is
    independent of all paths the entries may write — in particular every field
    that is skipped, reported `no match`, or not mentioned — reads after the
    whole list exactly what it read before. For every entry list, state, oracle. *)
Theorem C02_frame :
  forall ev conv l st q,
    (forall a p, In a l -> In p (wpaths a) -> independent p q) ->
    read (fst (exec_all ev conv l st)) q = read (fst st) q.
Proof. exact exec_all_frame. Qed.
Print Assumptions C02_frame.

(** Values ("copy exactly the matched values"): in a separated entry list, after
    the whole list has run the destination of an assignment holds the value of
    its source expression — whatever runs before or after it. *)
Theorem C02_assigned_value :
  forall ev conv l1 lhs r e l2 st,
    separated (l1 ++ ASimple lhs r e :: l2) ->
    (exists w, read (fst (exec_all ev conv l1 st)) (node_path lhs) = Some w) ->
    read (fst (exec_all ev conv (l1 ++ ASimple lhs r e :: l2) st)) (node_path lhs) = Some (ev r).
Proof. exact assigned_value. Qed.
Print Assumptions C02_assigned_value.

(** Separation is not an assumption about the generator: it follows from the
    partition theorem (C05). Whenever structToStruct returns entries for a
    destination struct whose fields have pairwise different names, the entries'
    written paths are pairwise independent, and each lies below its own field. *)
Theorem C02_entries_are_separated :
  forall d o mpos fuel L R args l ev,
    struct_to_struct d o mpos fuel L R args = (Ok l, ev) ->
    (forall f1 f2 fs1 fs2 fs3, field_nodes d L = fs1 ++ f1 :: fs2 ++ f2 :: fs3 -> str_eqb (obj_name f1) (obj_name f2) = false) ->
    separated l /\
    (forall a p, In a l -> In p (wpaths a) -> exists f, In f (field_nodes d L) /\ is_path_prefix (node_path f) p = true).
Proof.
  intros d o mpos fuel L R args l ev H Hnd.
  apply (covers_separated d L (field_nodes d L) l).
  - eapply struct_to_struct_covers; eassumption.
  - intros f Hf. unfold field_nodes in Hf. apply in_map_iff in Hf as (g & <- & _). eauto.
  - exact Hnd.
Qed.
Print Assumptions C02_entries_are_separated.

(** What the model does not give: [ev] is total, i.e. evaluating a source path
    never fails. In the generated code a :map/:conv source path through a nil
    nested pointer panics (no nil guard is emitted): known finding C02-nil-hop,
    found by executing the generated functions with nested pointers set to nil. *)

(** Non-vacuity: two assignments and a skipped field on a concrete object. *)
Example C02_example :
  let A := Field (s2b "A") [] true false [] (TBasic 2 (s2b "int")) in
  let B := Field (s2b "B") [] true false [] (TBasic 2 (s2b "int")) in
  let root := NRoot (s2b "dst") (TStruct [] [A; B]) in
  let d0 := VStruct [(s2b "A", VAtom 1); (s2b "B", VAtom 2); (s2b "C", VAtom 3)] in
  let ev := fun r => match r with RLiteral _ => VAtom 42 | RNode _ => VAtom 7 end in
  let l := [ASimple (NField root A) (RLiteral []) false; ASkip (NField root B)] in
  fst (exec_all ev (fun _ v => v) l (d0, 100)) = VStruct [(s2b "A", VAtom 42); (s2b "B", VAtom 2); (s2b "C", VAtom 3)].
Proof. vm_compute. reflexivity. Qed.
