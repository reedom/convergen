(** GenTieProofs.v — the hand-written generator model (Gen.v) IS the Go code of pkg/generator.
    gen/GoFuns.v is regenerated on every run from /repo's pkg/generator/function.go,
    assignment.go, manipulator.go and pkg/generator/model/{assignment,var}.go by the
    statement-by-statement translator harness/cmd/translate/gofun.go.  This file proves, for
    every function record, that Gen.v's definitions — the ones every text theorem of
    C01/C07/C08/C10/C16 is about — compute the same bytes as the translated Go functions.
    An edit of the Go string builders changes GoFuns.v; if it changes what they compute for
    some input, one of these proofs stops going through. *)
From Cvg Require Import Base GoLib Options Builder Gen GoFuns.
From Cvg.proofs Require Import BuilderProofs.
Import GoGen.
Open Scope N_scope.

(** ** the records the builder hands to the generator (pkg/builder/method.go, assignment.go
    fill model.Var, model.Manipulator, model.SimpleField{LHS: lhs.AssignExpr(), ...}, ...) *)
Definition lower_var (v : gvar) : Var_t :=
  {| Var_Name := v_name v; Var_Type := v_type v; Var_Pointer := v_pointer v; Var_External := v_external v |}.

Definition lower_manip (m : gmanip) : Manipulator_t :=
  {| Manipulator_Pkg := gm_pkg m; Manipulator_Name := gm_name m; Manipulator_IsDstPtr := gm_dst_ptr m;
     Manipulator_IsSrcPtr := gm_src_ptr m; Manipulator_HasAdditionalArgs := gm_has_args m;
     Manipulator_RetError := gm_ret_err m |}.

Fixpoint lower_assignment (a : assignment) : Assignment_t :=
  match a with
  | ASkip l => SkipField (assign_expr l)
  | ANoMatch l => NoMatchField (assign_expr l)
  | ASimple l r e => SimpleField (assign_expr l) (rhs_string r) e
  | ANest cs => NestStruct [] [] (List.map lower_assignment cs)
  | ASlice l r t => SliceAssignment (assign_expr l) (assign_expr r) t
  | ASliceLoop l r t => SliceLoopAssignment (assign_expr l) (assign_expr r) t
  | ASliceCast l r t c => SliceTypecastAssignment (assign_expr l) (assign_expr r) t c
  end.

Definition lower_function (f : function) : Function_t :=
  {| Function_Comments := fn_comments f; Function_Name := fn_name f; Function_Receiver := fn_receiver f;
     Function_Src := lower_var (fn_src f); Function_Dst := lower_var (fn_dst f);
     Function_AdditionalArgs := List.map lower_var (fn_args f);
     Function_RetError := fn_ret_err f; Function_DstVarStyle := fn_style f;
     Function_Assignments := List.map lower_assignment (fn_assignments f);
     Function_PreProcess := option_map lower_manip (fn_pre f);
     Function_PostProcess := option_map lower_manip (fn_post f) |}.

(** ** A translated builder function against the text of the model

    The translator threads the builder through [let sb := … in …]: [sb.WriteString(x)] is [sb ++ x], a
    Go [if c { … }] is an [if] with the whole builder in both branches, a [for … range] a [fold_left].
    A tie unfolds the Go function, turns every [if] around (a branch that appends to [sb] is [sb]
    followed by a conditional piece) and every loop, and reassociates; then the two sides are the
    same pieces.  Unfolding doubles the term with every [if]; turning an outermost [if] around merges
    its two copies of everything before it, so the term shrinks as the rewriting proceeds. *)
Lemma if_app {A} (c : bool) (sb x y : list A) : (if c then sb ++ x else sb ++ y) = sb ++ (if c then x else y).
Proof. now destruct c. Qed.

Lemma if_app_nil {A} (c : bool) (sb x : list A) : (if c then sb ++ x else sb) = sb ++ (if c then x else []).
Proof. destruct c; [reflexivity|now rewrite app_nil_r]. Qed.

Lemma opt_app_nil {A B} (o : option B) (g : B -> list A) sb :
  match o with Some p => sb ++ g p | None => sb end = sb ++ match o with Some p => g p | None => [] end.
Proof. destruct o; [reflexivity|now rewrite app_nil_r]. Qed.

Lemma fold_write' {A} (f : str -> A -> str) (g : A -> str) :
  (forall sb x, f sb x = sb ++ g x) -> forall xs sb, fold_left f xs sb = sb ++ concat_str (List.map g xs).
Proof.
  intros H xs. induction xs as [|x xs IH]; intros sb; cbn [fold_left List.map concat_str]; [now rewrite app_nil_r|].
  now rewrite IH, H, <- app_assoc.
Qed.

Lemma fold_write {A} (g : A -> str) xs : forall sb,
  fold_left (fun sb x => sb ++ g x) xs sb = sb ++ concat_str (List.map g xs).
Proof. now apply fold_write'. Qed.

Lemma fold_append {A B} (g : A -> B) xs : forall acc,
  fold_left (fun acc x => acc ++ [g x]) xs acc = acc ++ List.map g xs.
Proof.
  induction xs as [|x xs IH]; intros acc; cbn [fold_left List.map]; [now rewrite app_nil_r|].
  now rewrite IH, <- app_assoc.
Qed.

(** [rewrite <- app_assoc] at the root only: [rewrite] would search and re-check the whole goal at
    every step of bringing [((sb ++ a) ++ b) ++ c] to [sb ++ a ++ b ++ c]. *)
Lemma app_assoc_root {A} (s x r m : list A) : s ++ (x ++ r) = m -> (s ++ x) ++ r = m.
Proof. now rewrite app_assoc. Qed.

Lemma index_from_nonneg s c : forall i, (go_index_byte_from s c i = -1 \/ i <= go_index_byte_from s c i)%Z.
Proof.
  induction s as [|x s IH]; intros i; cbn [go_index_byte_from]; [now left|].
  destruct (x =? c); [right; lia|]. destruct (IH (i + 1)%Z) as [H|H]; [now left|right; lia].
Qed.

Lemma until_dot_index s : forall i, (0 <= i)%Z ->
  let n := go_index_byte_from s 46 i in
  until_dot s = if (n >=? 0)%Z then firstn (Z.to_nat (n - i)) s else s.
Proof.
  induction s as [|x s IH]; intros i Hi; cbn [go_index_byte_from until_dot]; [reflexivity|].
  destruct (x =? 46).
  - replace (i >=? 0)%Z with true by lia. now rewrite Z.sub_diag.
  - rewrite (IH (i + 1)%Z) by lia. set (n := go_index_byte_from s 46 (i + 1)).
    destruct (index_from_nonneg s 46 (i + 1)%Z) as [H|H]; fold n in H.
    + now rewrite H.
    + replace (n >=? 0)%Z with true by lia. now replace (Z.to_nat (n - i)) with (S (Z.to_nat (n - (i + 1)))) by lia.
Qed.

Lemma loopVars_tie lhs : loopVars lhs = loop_vars lhs.
Proof.
  unfold loopVars, loop_vars.
  pose proof (until_dot_index lhs 0%Z ltac:(lia)) as H. cbv zeta in H. rewrite Z.sub_0_r in H.
  fold (go_index_byte lhs 46) in H. rewrite H.
  reflexivity.
Qed.

Lemma assignment_string_tie : forall a, Assignment_String (lower_assignment a) = assignment_string a.
Proof.
  induction a as [l|l|l r e|cs IH|l r t|l r t|l r t c] using assignment_nest_ind;
    cbn [lower_assignment Assignment_String assignment_string str_eqb negb];
    [ | |rewrite if_app_nil|now rewrite fold_write, map_map, (map_ext_Forall _ _ IH)|
     |rewrite loopVars_tie; destruct (loop_vars (assign_expr l)) as [iv ev]..].
  (* the last rewrite is for what Go concatenates with [+] before writing it *)
  all: repeat apply app_assoc_root; rewrite <- ?app_assoc; reflexivity.
Qed.

Lemma assignment_ret_error_tie a : Assignment_RetError (lower_assignment a) = assignment_ret_error a.
Proof. destruct a; reflexivity. Qed.

Lemma lower_style f : Function_DstVarStyle (lower_function f) = fn_style f.
Proof. reflexivity. Qed.

Lemma assignment_to_string_tie f : forall a,
  AssignmentToString (lower_function f) (lower_assignment a) = assignment_to_string f a.
Proof.
  induction a as [l|l|l r e|cs IH|l r t|l r t|l r t c] using assignment_nest_ind;
    cbn [lower_assignment AssignmentToString assignment_to_string Assignment_RetError assignment_ret_error str_eqb negb].
  4: now rewrite fold_write, map_map, (map_ext_Forall _ _ IH).
  all: rewrite ?if_app, ?if_app_nil, ?app_nil_r, <- assignment_string_tie; reflexivity.
Qed.

Lemma if_app2_nil {A} (c : bool) (sb x y : list A) : (if c then (sb ++ x) ++ y else sb) = sb ++ (if c then x ++ y else []).
Proof. rewrite <- app_assoc. apply if_app_nil. Qed.

Lemma manipulator_to_string_tie m src dst args :
  ManipulatorToString (lower_manip m) (lower_var src) (lower_var dst) (List.map lower_var args)
  = manipulator_to_string m src dst args.
Proof.
  unfold manipulator_to_string, hook_call_text. rewrite <- !app_assoc.
  unfold ManipulatorToString. cbn [lower_manip Manipulator_Pkg].
  rewrite (fold_write' _ (fun arg => [44; 32] ++ Var_Name arg)) by (intros; now rewrite <- app_assoc).
  rewrite ?if_app, ?if_app_nil, ?if_app2_nil, ?if_negb, map_map.
  repeat apply app_assoc_root.
  destruct (gm_pkg m); reflexivity.
Qed.

Lemma full_type_tie v : Var_FullType (lower_var v) = full_type v.
Proof. reflexivity. Qed.

Lemma hook_dst_tie f :
  (if str_eqb (fn_style f) style_arg
   then {| Var_Name := Var_Name (lower_var (fn_dst f)); Var_Type := Var_Type (lower_var (fn_dst f));
           Var_Pointer := true; Var_External := Var_External (lower_var (fn_dst f)) |}
   else lower_var (fn_dst f)) = lower_var (hook_dst f).
Proof. unfold hook_dst. destruct (str_eqb (fn_style f) style_arg); reflexivity. Qed.

Lemma hook_tie (o : option gmanip) src dst args :
  match option_map lower_manip o with
  | Some p => ManipulatorToString p (lower_var src) (lower_var dst) (List.map lower_var args)
  | None => []
  end = match o with Some m => manipulator_to_string m src dst args | None => [] end.
Proof. destruct o; [apply manipulator_to_string_tie|reflexivity]. Qed.

(** the blocks of FuncToString that write more than once: the receiver … *)
Lemma if_app5_nil {A} (c : bool) (sb v w x y z : list A) :
  (if c then ((((sb ++ v) ++ w) ++ x) ++ y) ++ z else sb) = sb ++ (if c then v ++ w ++ x ++ y ++ z else []).
Proof. rewrite <- !app_assoc. apply if_app_nil. Qed.

(** … the allocation of a pointer destination, where Go tests [Dst.Pointer] a second time for the [&] … *)
Lemma init_block (p : bool) (sb n e a t z : str) :
  (if p then ((((sb ++ n) ++ e) ++ (if p then a else [])) ++ t) ++ z else sb)
  = sb ++ (if p then n ++ e ++ a ++ t ++ z else []).
Proof. destruct p; [now rewrite <- !app_assoc|now rewrite app_nil_r]. Qed.

(** … and the result list, which in return style ([s]) is followed by that allocation ([w]) *)
Lemma result_block (s p : bool) (sb o n sp t ie c w y : str) :
  (if s then ((((((sb ++ o) ++ n) ++ sp) ++ t) ++ ie) ++ c) ++ (if p then w else []) else sb ++ y)
  = (sb ++ (if s then o ++ n ++ sp ++ t ++ ie ++ c else y)) ++ (if s && p then w else []).
Proof. destruct s; [now rewrite <- !app_assoc|now rewrite app_nil_r]. Qed.

Theorem func_to_string_tie f : FuncToString (lower_function f) = func_to_string f.
Proof.
  unfold func_to_string, func_header, func_params. rewrite <- !app_assoc.
  unfold FuncToString.
  (* The closing return and the postprocess hook contain the builder after the assignments four times:
     it gets a name while they are turned around. *)
  set (sb := fold_left _ (Function_Assignments _) _).
  rewrite if_app_nil, opt_app_nil. subst sb.
  rewrite fold_write, opt_app_nil.
  (* Likewise the result list and the allocation, with the builder after the parameter list. *)
  set (sb := (_ ++ join_str _ _) ++ _).
  rewrite ?if_app_nil, ?if_app, init_block, result_block. subst sb.
  rewrite ?if_app_nil, if_app5_nil.
  cbn [lower_function Function_Comments Function_Name Function_Receiver Function_Src Function_Dst
       Function_AdditionalArgs Function_RetError Function_DstVarStyle Function_Assignments
       Function_PreProcess Function_PostProcess].
  rewrite (fold_write' _ (fun x => x ++ [10])) by (intros; now rewrite <- app_assoc).
  rewrite fold_append, !map_map, (map_ext _ _ (assignment_to_string_tie f)).
  rewrite (map_ext _ (fun a => v_name a ++ [32] ++ full_type a)) by (intros; symmetry; apply app_assoc).
  rewrite hook_dst_tie, !hook_tie.
  repeat apply app_assoc_root. rewrite <- ?app_assoc.
  destruct (fn_receiver f); reflexivity.
Qed.
