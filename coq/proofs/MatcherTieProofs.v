(** MatcherTieProofs.v — pkg/option's IdentMatcher / NameMatcher / FieldConverter matching as
    translated from the Go source on every run (gen/GoFuns.v, module GoNode) equals the model's
    [ident_match] / [for_getter] (Matcher.v); Options.CompareFieldName is the comparison
    [Builder.compare_field_name] spells. *)
From Cvg Require Import Base GoLib Unicode Matcher GoFuns.
Import GoNode.
Open Scope N_scope.

Lemma has_prefix_tie : forall p s, go_has_prefix s p = is_prefix p s.
Proof.
  induction p as [|y p IH]; intros s; destruct s as [|x s]; cbn [go_has_prefix is_prefix]; try reflexivity.
  rewrite IH. f_equal. apply N.eqb_sym.
Qed.

Lemma has_suffix_tie s p : go_has_suffix s p = is_suffix p s.
Proof. unfold go_has_suffix, is_suffix. apply has_prefix_tie. Qed.

Definition mk_ident (pattern : str) : IdentMatcher_t :=
  {| IdentMatcher_pattern := pattern; IdentMatcher_paths := ident_paths pattern |}.

Lemma ident_match_tie pattern paths ident exact :
  IdentMatcher_Match {| IdentMatcher_pattern := pattern; IdentMatcher_paths := paths |} ident exact
  = ident_match pattern ident exact.
Proof. reflexivity. Qed.

Lemma for_getter_tie pattern paths k :
  IdentMatcher_ForGetter {| IdentMatcher_pattern := pattern; IdentMatcher_paths := paths |} k
  = for_getter (nth (Z.to_nat k) paths []).
Proof. unfold IdentMatcher_ForGetter, for_getter. cbn [IdentMatcher_paths]. apply has_suffix_tie. Qed.

Lemma name_matcher_tie sm dm pos src dst exact :
  NameMatcher_Match {| NameMatcher_src := sm; NameMatcher_dst := dm; NameMatcher_pos := pos |} src dst exact
  = ident_match (IdentMatcher_pattern sm) src exact && ident_match (IdentMatcher_pattern dm) dst exact.
Proof. destruct sm, dm. reflexivity. Qed.

(** FieldConverter.Match (the :conv lookup of the builder) is case-sensitive whatever the case rule *)
Lemma converter_match_tie c src dst :
  FieldConverter_Match c src dst
  = str_eqb (IdentMatcher_pattern (NameMatcher_src (FieldConverter_m c))) src
    && str_eqb (IdentMatcher_pattern (NameMatcher_dst (FieldConverter_m c))) dst.
Proof. destruct c as [[[sp sps] [dp dps] pos] cv at_ rt re]. reflexivity. Qed.

(** Options.CompareFieldName: the comparison of a destination field's name with a source member's name
    (the name pass of the builder): equality, or simple-fold equality under :case:off *)
Lemma compare_field_name_tie o a b :
  Options_CompareFieldName o a b = if Options_ExactCase o then str_eqb a b else str_equal_fold a b.
Proof. reflexivity. Qed.
