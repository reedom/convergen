(** C06 — explicit notations (:skip, :map, :conv, :literal, $n) are honoured as written. *)
From Cvg Require Import Base Matcher Options Builder.
From Cvg.proofs Require Import TypedProofs BuilderProofs.
From Cvg Require Import GoFuns.
From Cvg.proofs Require Import NodeTieProofs.
Open Scope N_scope.

(** A destination field whose path matches a :skip pattern under the method's
    case rule yields `// skip:` and nothing else, whatever :conv/:map/:literal
    notations or same-named source members exist. *)
Theorem C06_skip_wins :
  forall d o mpos fuel lhs rhs args,
    should_skip (o_skip o) (matcher_expr lhs) (o_exact o) = MBool true ->
    match_field d o mpos fuel lhs rhs args = ret (Some (ASkip lhs)).
Proof. exact match_field_skip. Qed.
Print Assumptions C06_skip_wins.

(** Otherwise the first :conv naming the path decides: the field takes the
    converter's result (possibly through an opted-in String()/conversion) — the
    converter applied to the source path resolved from the root operand, which yields
    no error of its own, fitted to the parameter type, and addressable where it is
    passed as &arg — or is reported `no match` — never the default name match. The path comparison is
    case-sensitive whatever the case rule (ident_match _ _ true). *)
Theorem C06_conv_honoured :
  forall d o mpos fuel lhs rhs args c a ev,
    should_skip (o_skip o) (matcher_expr lhs) (o_exact o) = MBool false ->
    find (fun c => ident_match (fc_dst c) (matcher_expr lhs) true) (o_conv o) = Some c ->
    match_field d o mpos fuel lhs rhs args = (Ok a, ev) ->
    a = Some (ANoMatch lhs) \/
    exists src arg n,
      resolve_expr d (fc_src c) (node_root rhs) = Some src /\ returns_error src = false /\
      conv_arg_ok d o c src arg /\
      a = Some (ASimple lhs (RNode n) (fc_err c)) /\ cast_shape d o (NConv arg c) (expr_type lhs) n.
Proof.
  intros d o mpos fuel lhs rhs args c a ev Hs Hc H.
  rewrite (match_field_conv d o mpos fuel lhs rhs args c Hs Hc) in H.
  apply yields_intro, yields_map in H as (a0 & H0 & ->).
  apply create_with_converter_shape in H0 as [[-> _]|(src & arg & n & Hr & He & Ha & -> & Hn)]; [now left|right].
  exists src, arg, n. auto.
Qed.
Print Assumptions C06_conv_honoured.

(** :map (no :conv on the path): the value comes from exactly the mapped source path, resolved from the root source operand. *)
Theorem C06_map_honoured :
  forall d o mpos fuel lhs rhs args m a ev,
    should_skip (o_skip o) (matcher_expr lhs) (o_exact o) = MBool false ->
    find (fun c => ident_match (fc_dst c) (matcher_expr lhs) true) (o_conv o) = None ->
    find (fun m => ident_match (nm_dst m) (matcher_expr lhs) true) (o_map o) = Some m ->
    match_field d o mpos fuel lhs rhs args = (Ok a, ev) ->
    a = Some (ANoMatch lhs) \/
    exists src n, resolve_expr d (nm_src m) (node_root rhs) = Some src /\
                  a = Some (ASimple lhs (RNode n) (returns_error n)) /\ cast_shape d o src (expr_type lhs) n.
Proof.
  intros d o mpos fuel lhs rhs args m a ev Hs Hc Hm H.
  rewrite (match_field_map d o mpos fuel lhs rhs args m Hs Hc Hm) in H.
  apply yields_intro, yields_map in H as (a0 & H0 & ->).
  apply create_with_mapper_shape in H0 as [[-> _]|(src & n & Hr & -> & Hn)]; [now left|right; eauto].
Qed.
Print Assumptions C06_map_honoured.

(** :literal (no :conv/:map/$map on the path): exactly the literal text. *)
Theorem C06_literal_honoured :
  forall d o mpos fuel lhs rhs args l,
    should_skip (o_skip o) (matcher_expr lhs) (o_exact o) = MBool false ->
    find (fun c => ident_match (fc_dst c) (matcher_expr lhs) true) (o_conv o) = None ->
    find (fun m => ident_match (nm_dst m) (matcher_expr lhs) true) (o_map o) = None ->
    find (fun m => ident_match (nm_dst m) (matcher_expr lhs) true) (o_tmap o) = None ->
    find (fun l => ident_match (ls_dst l) (matcher_expr lhs) true) (o_lit o) = Some l ->
    match_field d o mpos fuel lhs rhs args = ret (Some (ASimple lhs (RLiteral (ls_literal l)) false)).
Proof. exact match_field_literal. Qed.
Print Assumptions C06_literal_honoured.

(** What these theorems do NOT give (and the code does not do): a notation on a
    nested path X.A is consulted only if match_field is reached for X.A, i.e.
    only when the enclosing field X is descended member by member. When X is
    assignable as a whole, dst.X = src.X is emitted and X.A is written through
    it: known findings C06-notation-under-enclosing-copy / C06-skip-under-enclosing-copy,
    witnessed by the correspondence runs (DESIGN.md section 7, #17). *)

(** Globally: the entries structToStruct returns are, accessible field by accessible field and in
    field order, exactly the answers of the precedence chain ([match_field]) for those fields —
    so the four theorems above hold for every field that gets an entry of its own. (A notation
    on a nested path is consulted when its enclosing field is copied member by member; when the
    enclosing field is assigned as a whole it is not: known findings C06-*-under-enclosing-copy.) *)
Theorem C06_every_field_decided_by_the_precedence_chain :
  forall d o mpos fuel L R args l ev,
    struct_to_struct d o mpos (S fuel) L R args = (Ok l, ev) ->
    exists rs, Forall2 (fun lf r => exists e, match_field d o mpos fuel lf R args = (Ok r, e))
                 (List.filter (fun f => is_field_accessible d L (obj_name f)) (field_nodes d L)) rs /\
               l = flat_map opt_list rs.
Proof. exact struct_to_struct_decided. Qed.
Print Assumptions C06_every_field_decided_by_the_precedence_chain.

(** Tie to the source. The destination and source paths that :skip patterns and the
    destinations of :map / :conv / :literal are compared with ([matcher_expr]), and the member
    names ([obj_name]), are what /repo's Node.MatcherExpr() and Node.ObjName() compute
    (pkg/builder/model node.go, struct.go translated into gen/GoFuns.v on every run). *)
Theorem C06_paths_are_what_the_go_code_computes :
  forall mo n,
    GoNode.Node_MatcherExpr (lower_node mo n) = matcher_expr n /\
    GoNode.Node_ObjName (lower_node mo n) = obj_name n.
Proof. intros mo n. split; [apply matcher_expr_tie|apply obj_name_tie]. Qed.
Print Assumptions C06_paths_are_what_the_go_code_computes.
