(** C01 — every successfully generated file is valid Go that compiles in its package.
    Static part proved here: the typing side-conditions of every emitted
    assignment built by castNode; layout of the parameter list. The remaining
    obligations (selectors visible, capture of identifiers beyond the two cases proved below, the carried-over
    declarations, gofmt) are decided on every run by type-checking the real
    output of the generated stream (go build + gofmt -l). *)
From Coq Require Import String.
From Cvg Require Import Base GoTypes Dump Options Builder Gen.
From Cvg.proofs Require Import BuilderProofs TypedProofs.
From Cvg Require Import GoFuns.
From Cvg.proofs Require Import GenTieProofs HeaderProofs NodeTieProofs.
Open Scope N_scope.

(** Every expression castNode lets through for a target type t is assignable to
    t as it stands, or is a String() call (a string assignable to t, on a type
    that has String() string), or an explicit conversion between convertible
    types whose result type is t. *)
Theorem C01_cast_typed :
  forall d o mpos t r n ev,
    cast_node d o mpos t r = (Ok (Some n), ev) ->
    (n = r /\ assignable (d_env d) (expr_type r) t = true) \/
    (n = NStringer r /\ assignable (d_env d) (expr_type n) t = true /\ complies_stringer (d_env d) (expr_type r) = true) \/
    (exists e, n = NCast r t e /\ expr_type n = t /\ convertible (d_env d) (expr_type r) t = true).
Proof.
  intros d o mpos t r n ev H. apply yields_intro, cast_node_shape in H. destruct H as [Ha|He Hs Ha Hc|e He Ht Hc].
  - left. auto.
  - right. left. auto.
  - right. right. exists e. auto.
Qed.
Print Assumptions C01_cast_typed.

(** "error result with nowhere to go": a call that also yields an error is never
    wrapped in a String() call or a conversion — it is used as it stands or not at all. *)
Theorem C01_two_valued_call_never_wrapped :
  forall d o mpos t r n ev,
    cast_node d o mpos t r = (Ok (Some n), ev) -> returns_error r = true -> n = r.
Proof.
  intros d o mpos t r n ev H Hr. apply yields_intro, cast_node_shape in H. destruct H as [Ha|He Hs Ha Hc|e He Ht Hc];
    [reflexivity|congruence|congruence].
Qed.
Print Assumptions C01_two_valued_call_never_wrapped.

(** "non-addressable operand": the argument of a :conv converter is the source path
    resolved from the root operand, yields no error of its own, and where it is fitted
    to the pointed-to type of a pointer parameter (and so written &arg) it is a pointer
    already or an addressable expression: a variable or a field chain through
    addressable structs or pointers, never a call or a conversion.
    Partial: a source of a defined pointer type (type P *T) that is assignable to the
    parameter type *T as it stands is outside [addressable]'s reach (not generated). *)
Theorem C01_converter_argument_partial :
  forall d o mpos lhs rhs c a ev,
    create_with_converter d o mpos lhs rhs c = (Ok a, ev) ->
    a = ANoMatch lhs \/
    exists src arg n, resolve_expr d (fc_src c) (node_root rhs) = Some src /\ returns_error src = false /\
      conv_arg_ok d o c src arg /\ a = ASimple lhs (RNode n) (fc_err c) /\ cast_shape d o (NConv arg c) (expr_type lhs) n.
Proof.
  intros d o mpos lhs rhs c a ev H.
  apply yields_intro, create_with_converter_shape in H as [[-> _]|X]; [now left|now right].
Qed.
Print Assumptions C01_converter_argument_partial.

Example C01_addressable_examples :
  let src := NRoot (s2b "src") (TPtr [] (TNamed 0)) in
  let f := Field (s2b "B") [] true false [] (TBasic 2 (s2b "int")) in
  let g := Sig [] [] [[]] [TBasic 2 (s2b "int")] false in
  addressable (NField src f) = true /\
  addressable (NMethod src (s2b "C") g) = false /\
  addressable (NCast (NField src f) (TBasic 6 (s2b "int64")) (s2b "int64")) = false.
Proof. repeat split. Qed.

(** The same, for the whole result: EVERY entry structToStruct returns — at any nesting depth,
    whichever notation or default rule produced it — is a skip or no-match comment, the literal
    the user wrote, an expression castNode fitted to the assigned field's type in one of the
    three ways above, a member-wise block of such entries, or a slice block between element
    types that are identical and basic (copy), assignable (loop) or, under :typecast,
    convertible (converting loop). *)
Theorem C01_every_entry_is_typed :
  forall d o mpos fuel L R args l ev,
    struct_to_struct d o mpos fuel L R args = (Ok l, ev) -> Forall (typed_entry d o) l.
Proof. exact struct_to_struct_typed. Qed.
Print Assumptions C01_every_entry_is_typed.

(** The parameter list is a comma-joined list of non-empty "name type" items: no empty slot. *)
Theorem C01_params_nonempty_items :
  forall f p, In p (func_params f) -> exists name ty, p = name ++ [32] ++ ty \/ p = name ++ s2b " *" ++ ty.
Proof.
  intros f p. unfold func_params. rewrite !in_app_iff. intros [H|[H|H]].
  - destruct (str_eqb (fn_style f) style_arg); [|destruct H]. destruct H as [<-|[]]. eauto.
  - destruct (fn_receiver f); [|destruct H]. destruct H as [<-|[]]. eauto.
  - apply in_map_iff in H as (a & <- & _). eauto.
Qed.
Print Assumptions C01_params_nonempty_items.

(** Identifier capture: the index and element variables of a slice copy loop differ from
    the variable the assigned expression starts with, whatever the user called it. *)
Theorem C01_loop_variables_do_not_capture :
  forall lhs, fst (loop_vars lhs) <> until_dot lhs /\ snd (loop_vars lhs) <> until_dot lhs.
Proof.
  (* each variable is the short name unless the root has it, and then the long one *)
  assert (other : forall r a b : str, a <> b -> (if str_eqb r a then b else a) <> r).
  { intros r a b Hab. destruct (str_eqb r a) eqn:E; [apply str_eqb_eq in E as ->; auto|].
    apply str_eqb_neq in E. auto. }
  intros lhs. split; apply other; intros H; vm_compute in H; discriminate.
Qed.
Print Assumptions C01_loop_variables_do_not_capture.

(** Tie to the source. [GoGen.FuncToString] is /repo's pkg/generator.FuncToString (with
    AssignmentToString, ManipulatorToString, the String()/RetError() methods of the
    assignment kinds, loopVars and Var.FullType), translated statement by statement into
    gen/GoFuns.v on every run; [lower_function] is the record the builder hands over.  The
    function text the theorems of this file speak about is therefore what the Go code
    computes, for every function record. *)
Theorem C01_text_is_what_the_go_code_prints :
  forall f, GoGen.FuncToString (lower_function f) = func_to_string f.
Proof. exact func_to_string_tie. Qed.
Print Assumptions C01_text_is_what_the_go_code_prints.

(** The variables a generated function declares in its one scope — the source (or receiver),
    the destination, the additional arguments, and [err] when it returns an error — have
    pairwise different names, whatever the method declared (a parameter called err, dst, arg0
    or _ included): CreateFunction rejects every other method. *)
Theorem C01_variables_declared_once :
  forall d fuel m comments f ev,
    create_function d fuel m comments = (Ok f, ev) ->
    NoDup (v_name (fn_src f) :: v_name (fn_dst f) :: List.map v_name (fn_args f)) /\
    (fn_ret_err f = true ->
     ~ In (s2b "err") (v_name (fn_src f) :: v_name (fn_dst f) :: List.map v_name (fn_args f))).
Proof. exact create_function_names_distinct. Qed.
Print Assumptions C01_variables_declared_once.

(** Tie to the source, expression level. [GoNode.Node_AssignExpr], [Node_ExprType] and
    [Node_ReturnsError] are /repo's pkg/builder/model node.go and struct.go (the methods of the
    seven node kinds), translated statement by statement into gen/GoFuns.v on every run;
    [lower_node] nests the Go nodes the way the builder does.  The expression text, its type and its
    error flag that the typing theorems above speak about are what the Go code computes. *)
Theorem C01_expressions_are_what_the_go_code_prints :
  forall mo n,
    GoNode.Node_AssignExpr (lower_node mo n) = assign_expr n /\
    GoNode.Node_ExprType (lower_node mo n) = expr_type n /\
    GoNode.Node_ReturnsError (lower_node mo n) = returns_error n.
Proof. intros mo n. split; [apply assign_expr_tie|split; [apply expr_type_tie|apply returns_error_tie]]. Qed.
Print Assumptions C01_expressions_are_what_the_go_code_prints.

(** End to end in translated Go code: the text emitted for a simple assignment is
    model.SimpleField{LHS: lhs.AssignExpr(), RHS: rhs.AssignExpr(), Error: rhs.ReturnsError()}.String()
    where AssignExpr, ReturnsError and String are the functions translated from /repo on this run. *)
Theorem C01_assignment_text_end_to_end :
  forall mo l r,
    GoGen.Assignment_String
      (GoGen.SimpleField (GoNode.Node_AssignExpr (lower_node mo l)) (GoNode.Node_AssignExpr (lower_node mo r))
         (GoNode.Node_ReturnsError (lower_node mo r)))
    = assignment_string (ASimple l (RNode r) (returns_error r)).
Proof. exact simple_assignment_text_chain. Qed.
Print Assumptions C01_assignment_text_end_to_end.
