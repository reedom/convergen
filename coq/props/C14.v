(** C14 — bad input yields a diagnostic and a non-zero exit, never a crash or hang.
    Proved here: the guarded panic sites are unreachable (nil regexp after a
    case-rule change), success never drops a method, every run of the model
    terminates by construction (structural recursion / fuel). The complete
    no-panic statement over the whole pipeline is [C14_no_panic]; it is tied to
    the code by the malformed-input correspondence stream, where the model
    predicts the implementation's outcome class (ok / error / panic) case by
    case, and its hypothesis [dump_wf_b] is reported by the model with every run
    and required to be true by the harness. *)
From Cvg Require Import Base Matcher Dump Front Pipeline.
From Cvg.proofs Require Import FrontProofs NoPanicProofs FuelProofs.
From Cvg.gen Require FixtureDumps.
Open Scope N_scope.

(** The whole pipeline — findConvergenEntries, every notation parser, parseMethods,
    resolveConverters, CreateFunction with structToStruct at any depth, castNode,
    NewTypecast, sliceToSlice, buildManipulator — reaches no panic site, for every
    dump whose signatures carry one name slot per parameter and result (what
    go/types always provides): the run ends in Ok, Err, Fuel or Unsup.
    Proving this found two crashes of the pinned code (NewTypecast on a
    predeclared named type; the model's site is gone with the repair). *)
Theorem C14_no_panic :
  forall d, dump_wf_b d = true -> is_panic (po_result (run_pipeline d)) = false.
Proof. exact run_pipeline_never_panics. Qed.
Print Assumptions C14_no_panic.

(** ... nor does the model's recursion run out of fuel (the model's reading of "never hangs" for
    the member-wise descent of structToStruct, the only unbounded recursion of the pipeline):
    when by-value struct containment is well-founded — [rank_ok_b]: a rank computed from the
    environment decreases through every named type, which Go's rejection of invalid recursive
    types guarantees, and stays below [build_fuel] for every method's operands; computed by the
    model on every run and required to be true by the harness — the outcome is never Fuel.
    With C19_parser_fuel_suffices (the regexp parser) every fuelled recursion of the model is covered. *)
Theorem C14_no_fuel_exhaustion :
  forall d, rank_ok_b d = true -> is_fuel (po_result (run_pipeline d)) = false.
Proof. exact run_pipeline_never_out_of_fuel. Qed.
Print Assumptions C14_no_fuel_exhaustion.

(** Non-vacuity, on the repository's own fixtures (regenerated from /repo on every
    run): each decodes, satisfies the hypothesis, and the model runs it to Ok with
    at least one function — except the one without converter interface, which
    ends in Err.  [fixture_status]: (1, number of functions) for Ok, 2 Err, 3 Panic, 4 Fuel,
    5 Unsup; 8 the hypotheses fail, 9 the dump does not decode. *)
Definition fixture_status (sx : sexp) : N * N :=
  match dec_dump sx with
  | None => (9, 0)
  | Some d =>
      if negb (dump_wf_b d && rank_ok_b d) then (8, 0) else
      match po_result (run_pipeline d) with
      | Ok bs => (1, N.of_nat (List.length (List.concat (List.map b_funcs bs))))
      | Err _ => (2, 0) | Panic _ => (3, 0) | Fuel => (4, 0) | Unsup _ => (5, 0)
      end
  end.
Example C14_fixtures_meet_hypothesis :
  forallb (fun p => let '(k, n) := fixture_status (snd p) in ((k =? 1) && (1 <=? n)) || (k =? 2)) FixtureDumps.fixtures = true
  /\ existsb (fun p => fst (fixture_status (snd p)) =? 2) FixtureDumps.fixtures = true
  /\ (10 <=? N.of_nat (List.length FixtureDumps.fixtures)) = true.
Proof.
  (* each fixture is run once; the three facts are read off the list of the results *)
  rewrite (forallb_map (fun p => fixture_status (snd p)) (fun '(k, n) => ((k =? 1) && (1 <=? n)) || (k =? 2))).
  rewrite (existsb_map (fun p => fixture_status (snd p)) (fun kn => fst kn =? 2)).
  let v := eval vm_compute in (List.map (fun p => fixture_status (snd p)) FixtureDumps.fixtures) in
  replace (List.map (fun p => fixture_status (snd p)) FixtureDumps.fixtures) with v by (vm_compute; reflexivity).
  repeat split.
Qed.

(** PatternMatcher.Match never meets a nil regexp: over any list of matchers
    made by NewPatternMatcher, for any path and any case rule. *)
Theorem C14_no_nil_regexp :
  forall ms name ex, Forall pm_ok ms -> should_skip ms name ex <> MPanic.
Proof. exact should_skip_never_panics. Qed.
Print Assumptions C14_no_nil_regexp.

Theorem C14_matchers_are_ok :
  forall p ex m, new_pmatcher p ex = Some m -> pm_ok m.
Proof. exact new_pmatcher_ok. Qed.
Print Assumptions C14_matchers_are_ok.

(** Success never drops a method: when parseMethods succeeds every method of
    the interface has its entry, in order. *)
Theorem C14_no_silent_drop :
  forall d ms opts st res st' ev,
    parse_methods_loop d ms opts st [] false [] = (Ok res, st', ev) -> List.map me_decl res = ms.
Proof. exact parse_methods_loop_decls. Qed.
Print Assumptions C14_no_silent_drop.

(** Termination: [run_pipeline] is a total Gallina function (every recursion is
    structural or on explicit fuel); running out of fuel is a distinct outcome. *)
Theorem C14_total : forall d, exists r, run_pipeline d = r.
Proof. intros d. eexists. reflexivity. Qed.
Print Assumptions C14_total.
