(** C15 — a run writes only its output (and log); dry or failed runs write nothing there. *)
From stdpp Require Import gmap.
From Cvg Require Import Cli Run.
From Cvg.proofs Require Import CliProofs RunProofs.

(** The only effects a run can have, whatever the inputs. *)
Theorem C15_effects :
  forall c can_write g e,
    In e (r_effects (run_core c can_write g)) ->
    (e = Truncate (c_log c) /\ c_log c <> []) \/
    (exists code, e = WriteFile (c_output c) code /\ g = GenCode code /\ c_dry c = false).
Proof.
  intros c cw g e.
  destruct (run_core_cases c cw g) as [[_ [->| ->]]|(code & -> & ->)]; cbn [r_effects].
  - intros [].
  - intros H%in_log_effects. now left.
  - intros [H%in_log_effects|H]%in_app_or; [now left|right].
    destruct (c_dry c); [destruct H|]. destruct H as [<-|[]]. now exists code.
Qed.
Print Assumptions C15_effects.

(** Frame: every path other than the output path and the log path keeps its
    content (or absence) — for every file system, configuration, pipeline
    result and writability oracle. *)
Theorem C15_frame :
  forall (gen : fs -> path -> path -> gen_result) (can_write : path -> bool) 
         (c : config) (f : fs) (p : path),
    p <> c_output c -> p <> c_log c -> fst (run gen can_write c f) !! p = f !! p.
Proof.
  intros gen cw c f p Ho Hl. apply apply_effects_frame.
  intros e [[-> _]|(code & -> & _)]%C15_effects; congruence.
Qed.
Print Assumptions C15_frame.

(** With -dry, or when the run fails, the output path is left exactly as it was
    (absent stays absent, content stays identical) — unless -out names the log
    file itself ([no_alias]). *)
Theorem C15_dry_or_failed :
  forall gen can_write (c : config) (f : fs),
    no_alias c ->
    (c_dry c = true \/ r_status (snd (run gen can_write c f)) <> 0%N) ->
    fst (run gen can_write c f) !! c_output c = f !! c_output c.
Proof.
  intros gen cw c f Hna H. apply apply_effects_frame. intros e He.
  rewrite run_snd in H. set (g := gen _ _ _) in *.
  (* such a run opens at most the log *)
  assert (Hlog : In e (log_effects c)).
  { destruct (run_core_cases c cw g) as [[_ [E|E]]|(code & _ & E)]; rewrite E in *; cbn [r_effects r_status] in *.
    - destruct He.
    - exact He.
    - destruct H as [Hd|H]; [now rewrite Hd, app_nil_r in He|now destruct H]. }
  apply in_log_effects in Hlog as [-> Hl]. destruct Hna; congruence.
Qed.
Print Assumptions C15_dry_or_failed.

(** Non-vacuity: a failed run with -log on a file system with three files. *)
Example C15_example :
  let c := {| c_input := [1]; c_output := [2]; c_log := [3]; c_dry := false; c_prints := false |} in
  let f : fs := <[[1] := [7]]> (<[[2] := [8]]> (<[[9] := [9]]> ∅)) in
  let r := run (fun _ _ _ => GenFail) (fun _ => true) c f in
  r_status (snd r) = 1%N /\ fst r !! [2] = Some [8] /\ fst r !! [9] = Some [9] /\ fst r !! [3] = Some [].
Proof. vm_compute. repeat split. Qed.
