(** HeaderProofs.v — the signature of every generated function is the one
    documented for its combination of style / receiver / reverse / error /
    additional arguments (C08); what a successful CreateFunction did ([create_function_ok], also behind
    C01's distinct names, C03, C07). *)
From Coq Require Import String.
From Cvg Require Import Base GoTypes Dump Options Front Builder Gen Pipeline.
From Cvg.proofs Require Import BuilderProofs.
Open Scope N_scope.

(** The documented shape, written independently of FuncToString: receiver (when
    :recv) of the source's full type; then the destination as a leading pointer
    parameter in arg style; then the source (unless it is the receiver); then the
    additional arguments in order; results: destination (+ err error) in return
    style, (err error) or nothing in arg style. Names: declared, else src/dst
    (swapped under :reverse) and arg0, arg1, ... *)
Record doc_operand := { do_name : str; do_type : str; do_ptr : bool }.
Definition do_full (v : doc_operand) : str := if do_ptr v then [42] ++ do_type v else do_type v.

Definition documented_header (name recv style : str) (ret_err : bool) (src dst : doc_operand) (args : list doc_operand) : str :=
  let params :=
    (if str_eqb style style_arg then [do_name dst ++ s2b " *" ++ do_type dst] else []) ++
    (match recv with [] => [do_name src ++ [32] ++ do_full src] | _ => [] end) ++
    List.map (fun a => do_name a ++ [32] ++ do_full a) args in
  s2b "func " ++
  (match recv with [] => [] | r => [40] ++ r ++ [32] ++ do_full src ++ s2b ") " end) ++
  name ++ [40] ++ join_str (s2b ", ") params ++ s2b ") " ++
  (if str_eqb style style_return then
     [40] ++ do_name dst ++ [32] ++ do_full dst ++ (if ret_err then s2b ", err error" else []) ++ s2b ") {" ++ nl
   else if ret_err then s2b "(err error) {" ++ nl else s2b "{" ++ nl).

Definition operand_of (v : gvar) : doc_operand := {| do_name := v_name v; do_type := v_type v; do_ptr := v_pointer v |}.

Lemma map_operands l :
  List.map (fun a => do_name a ++ [32] ++ do_full a) (List.map operand_of l) =
  List.map (fun a => v_name a ++ [32] ++ full_type a) l.
Proof. induction l as [|v l IH]; cbn [List.map]; [reflexivity|]. f_equal. exact IH. Qed.

Lemma func_header_documented f :
  func_header f = documented_header (fn_name f) (fn_receiver f) (fn_style f) (fn_ret_err f)
                    (operand_of (fn_src f)) (operand_of (fn_dst f)) (List.map operand_of (fn_args f)).
Proof.
  unfold func_header, documented_header, func_params. rewrite map_operands. destruct (fn_receiver f); reflexivity.
Qed.

(** createVar: declared name or the default; type printed without the pointer; pointer-ness kept *)
Lemma create_var_spec d name t def v :
  create_var d name t def = Ok v ->
  v_name v = declared_name name def /\
  type_name d (deref_ptr t) = Ok (v_type v) /\ v_pointer v = is_ptr t.
Proof.
  intros H. apply obind_ok in H as (tn & Htn & H). apply obind_ok in H as (ext & _ & H).
  injection H as <-. auto.
Qed.

Section Header.
  Variable d : dump.

  Lemma first_redeclared_none names : forall seen,
    first_redeclared seen names = None -> NoDup names /\ forall n, In n names -> ~ In n seen.
  Proof.
    induction names as [|n rest IH]; intros seen H; cbn [first_redeclared] in H.
    - split; [constructor|intros ? []].
    - destruct (mem_str n seen) eqn:E; [discriminate|]. apply mem_str_false_not_in in E.
      destruct (IH _ H) as [Hnd Hns]. split.
      + constructor; [|exact Hnd]. intros Hin. apply (Hns n Hin). now left.
      + intros x [<-|Hin]; [exact E|]. intros Hs. apply (Hns x Hin). now right.
  Qed.

  Lemma create_function_ok fuel m comments f ev :
    create_function d fuel m comments = (Ok f, ev) ->
    first_redeclared (if fn_ret_err f then [s2b "err"] else [])
      (v_name (fn_src f) :: v_name (fn_dst f) :: List.map v_name (fn_args f)) = None /\
    (fn_ret_err f = false -> find_error_assignment (fn_assignments f) = None) /\
    fn_name f = md_name (me_decl m) /\ fn_receiver f = o_receiver (me_opts m) /\
    fn_style f = o_style (me_opts m) /\ fn_ret_err f = me_ret_error d m /\
    exists src_t arg_ts src_n arg_ns dst_t dst_n rts rns sv0,
      sg_ptys (me_sig m) = src_t :: arg_ts /\ sg_pnames (me_sig m) = src_n :: arg_ns /\
      sg_rtys (me_sig m) = dst_t :: rts /\ sg_rnames (me_sig m) = dst_n :: rns /\
      create_var d src_n src_t (if o_reverse (me_opts m) then s2b "dst" else s2b "src") = Ok sv0 /\
      create_var d dst_n dst_t (if o_reverse (me_opts m) then s2b "src" else s2b "dst") = Ok (fn_dst f) /\
      fn_src f = (match o_receiver (me_opts m) with
                  | [] => sv0
                  | recv => {| v_name := recv; v_type := v_type sv0; v_pointer := v_pointer sv0; v_external := v_external sv0 |}
                  end) /\
      List.length (fn_args f) = Nat.min (List.length arg_ns) (List.length arg_ts).
  Proof.
    unfold create_function. intros H.
    destruct (sg_ptys (me_sig m)) as [|src_t arg_ts]; [discriminate|].
    destruct (sg_pnames (me_sig m)) as [|src_n arg_ns]; [discriminate|].
    destruct (sg_rtys (me_sig m)) as [|dst_t rts]; [discriminate|].
    destruct (sg_rnames (me_sig m)) as [|dst_n rns]; [discriminate|].
    (* the checks that reject the method *)
    repeat match type of H with
           | (if ?c then _ else _) = _ => destruct c; [discriminate|]
           | (match ?c with Some _ => _ | None => _ end) = _ => destruct c; [discriminate|]
           end.
    (* the stages, in order: createVar for source, destination and additional arguments; the receiver put in
       place of the source; the redeclaration check; structToStruct; the error-assignment check; the two hooks *)
    apply yields_intro in H.
    apply yields_bind in H as (sv0 & Hs & H). apply yields_lift in Hs.
    apply yields_bind in H as (dv & Hd & H). apply yields_lift in Hd.
    apply yields_bind in H as (avs & Ha & H). apply yields_lift in Ha.
    apply yields_bind in H as (sv & Hsv & H).
    apply yields_bind in H as ([] & Hu & H).
    apply yields_bind in H as (asg & _ & H).
    apply yields_bind in H as ([] & He & H).
    apply yields_bind in H as (pre & _ & H). apply yields_map in H as (post & _ & ->).
    cbn [fn_src fn_dst fn_args fn_ret_err fn_assignments fn_name fn_receiver fn_style].
    repeat match goal with |- _ /\ _ => split end; try reflexivity.
    - destruct (first_redeclared _ _); [now apply yields_errorf in Hu|reflexivity].
    - intros Hr. rewrite Hr in He. destruct (find_error_assignment asg); [now apply yields_errorf in He|reflexivity].
    - exists src_t, arg_ts, src_n, arg_ns, dst_t, dst_n, rts, rns, sv0. repeat split; trivial.
      + destruct (o_receiver (me_opts m)); [now apply yields_ret in Hsv|].
        destruct (v_external sv0); [now apply yields_errorf in Hsv|now apply yields_ret in Hsv].
      + (* the local recursion over the additional arguments; 0 is the index of arg0 *)
        clear - Ha. revert avs Ha. generalize 0 as i. revert arg_ts.
        induction arg_ns as [|n ns IH]; intros [|t ts] i avs Ha; cbn in Ha |- *; try (injection Ha as <-; reflexivity).
        apply obind_ok in Ha as (v & _ & Ha). apply obind_ok in Ha as (rest & Hrest & Ha).
        injection Ha as <-. cbn [List.length]. f_equal. exact (IH _ _ _ Hrest).
  Qed.

  (** what CreateFunction puts into the fields the header is made of *)
  Theorem create_function_operands fuel m comments f ev :
    create_function d fuel m comments = (Ok f, ev) ->
    exists src_t arg_ts src_n arg_ns dst_t dst_n rts rns,
      sg_ptys (me_sig m) = src_t :: arg_ts /\ sg_pnames (me_sig m) = src_n :: arg_ns /\
      sg_rtys (me_sig m) = dst_t :: rts /\ sg_rnames (me_sig m) = dst_n :: rns /\
      fn_name f = md_name (me_decl m) /\
      fn_receiver f = o_receiver (me_opts m) /\
      fn_style f = o_style (me_opts m) /\
      fn_ret_err f = me_ret_error d m /\
      (* destination: declared name, else dst (src under :reverse); declared pointer-ness; qualified type *)
      v_name (fn_dst f) = declared_name dst_n (if o_reverse (me_opts m) then s2b "src" else s2b "dst") /\
      type_name d (deref_ptr dst_t) = Ok (v_type (fn_dst f)) /\ v_pointer (fn_dst f) = is_ptr dst_t /\
      (* source: the receiver name when :recv, else declared, else src (dst under :reverse) *)
      v_name (fn_src f) = (match o_receiver (me_opts m) with
                           | [] => declared_name src_n (if o_reverse (me_opts m) then s2b "dst" else s2b "src")
                           | r => r end) /\
      type_name d (deref_ptr src_t) = Ok (v_type (fn_src f)) /\ v_pointer (fn_src f) = is_ptr src_t /\
      List.length (fn_args f) = Nat.min (List.length arg_ns) (List.length arg_ts).
  Proof.
    intros H. apply create_function_ok in H
      as (_ & _ & Hn & Hr & Hst & Hre & src_t & arg_ts & src_n & arg_ns & dst_t & dst_n & rts & rns & sv0
          & E1 & E2 & E3 & E4 & Hs & Hd & Hsrc & Hlen).
    exists src_t, arg_ts, src_n, arg_ns, dst_t, dst_n, rts, rns.
    apply create_var_spec in Hs as (Hs1 & Hs2 & Hs3). apply create_var_spec in Hd as (Hd1 & Hd2 & Hd3).
    repeat split; trivial.
    all: rewrite Hsrc; destruct (o_receiver (me_opts m)); trivial.
  Qed.

  (** the variables of the generated function — source (or receiver), destination, additional
      arguments, and err when it returns an error — have pairwise different names *)
  Theorem create_function_names_distinct fuel m comments f ev :
    create_function d fuel m comments = (Ok f, ev) ->
    NoDup (v_name (fn_src f) :: v_name (fn_dst f) :: List.map v_name (fn_args f)) /\
    (fn_ret_err f = true ->
     ~ In (s2b "err") (v_name (fn_src f) :: v_name (fn_dst f) :: List.map v_name (fn_args f))).
  Proof.
    intros H. apply create_function_ok in H as (Hf & _).
    apply first_redeclared_none in Hf as [Hnd Hns]. split; [exact Hnd|].
    intros Hr Hin. rewrite Hr in Hns. apply (Hns _ Hin). now left.
  Qed.

  Theorem reverse_with_arguments_rejected fuel m comments src_t a arg_ts :
    sg_ptys (me_sig m) = src_t :: a :: arg_ts -> o_reverse (me_opts m) = true ->
    sg_pnames (me_sig m) <> [] -> sg_rtys (me_sig m) <> [] -> sg_rnames (me_sig m) <> [] ->
    exists msg ev, create_function d fuel m comments = (Err msg, ev).
  Proof.
    intros Hp Hr Hn Hrt Hrn. unfold create_function. rewrite Hp.
    destruct (sg_pnames (me_sig m)); [contradiction|].
    destruct (sg_rtys (me_sig m)); [contradiction|].
    destruct (sg_rnames (me_sig m)); [contradiction|].
    rewrite Hr. simpl. unfold errorf. eauto.
  Qed.

  (** CreateFunctions: one function per entry, in order *)
  Lemma create_functions_ok st ms : forall fs ev,
    create_functions d st ms = (Ok fs, ev) ->
    Forall2 (fun m f => exists ev', create_function d (build_fuel d) m (doc_lines st (me_doc m)) = (Ok f, ev')) ms fs.
  Proof. induction ms as [|m ms IH]; intros fs ev H; cbn [create_functions] in H; inv_res; constructor; eauto. Qed.
End Header.
