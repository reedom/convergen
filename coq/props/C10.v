(** C10 — pre/post hooks run once, in order, on the real operands. *)
From Cvg Require Import Base GoTypes Dump Options Builder Gen Sem.
From Cvg.proofs Require Import SemProofs.
From Cvg Require Import GoFuns.
From Cvg.proofs Require Import GenTieProofs.
Open Scope N_scope.

(** Placement: the body is  [dst = &T{}]  preprocess  assignments  postprocess  return. *)
Theorem C10_body_shape :
  forall f, body_of f = init_stmts f ++ hook_stmts f (fn_pre f) ++
              List.concat (List.map (astmts f) (fn_assignments f)) ++ hook_stmts f (fn_post f) ++ final_stmts f.
Proof. exact body_shape. Qed.
Print Assumptions C10_body_shape.

(** Each hook is one call site of the body: the preprocess hook is the first
    call, the postprocess hook the last, everything else lies between them. *)
Theorem C10_hook_sites :
  forall f, sites (body_of f) =
    (match fn_pre f with Some m => [hook_site m] | None => [] end) ++
    sites (List.concat (List.map (astmts f) (fn_assignments f))) ++
    (match fn_post f with Some m => [hook_site m] | None => [] end).
Proof. exact body_sites. Qed.
Print Assumptions C10_hook_sites.

(** When no user function fails, executing the body returns nil and its call
    trace is exactly [sites (body_of f)]: preprocess, the assignments' calls,
    postprocess — each hook exactly once, in that order. *)
Theorem C10_trace_without_failure :
  forall (E : Type) (fails : site -> option E) f,
    (forall s, In s (sites (body_of f)) -> fails s = None) ->
    exec E fails (body_of f) None [] = Returned E None (sites (body_of f)).
Proof. exact exec_without_failure. Qed.
Print Assumptions C10_trace_without_failure.

(** Adaptation: the destination argument printed for a hook (&v, *v or v) has the
    pointer-ness the hook declares, for all four combinations; in arg style the
    function's destination variable is a pointer whatever the method declared
    ([hook_dst]); likewise for the source. *)
Theorem C10_adaptation :
  forall var_ptr want_ptr, adapted_ptr var_ptr want_ptr = want_ptr.
Proof. exact adaptation_correct. Qed.
Print Assumptions C10_adaptation.

Theorem C10_arg_style_destination_is_pointer :
  forall f, str_eqb (fn_style f) style_arg = true -> v_pointer (hook_dst f) = true.
Proof. intros f H. unfold hook_dst. now rewrite H. Qed.
Print Assumptions C10_arg_style_destination_is_pointer.

(** Rejection at generation time: a hook whose operand types do not fit, or that
    returns an error in a method without error result, makes buildManipulator fail. *)
Theorem C10_misfit_rejected :
  forall d m src_t dst_t arg_ts ret_err g ev,
    build_manipulator d (Some m) src_t dst_t arg_ts ret_err = (Ok g, ev) ->
    (mp_ret_err m = true -> ret_err = true) /\
    assignable (d_env d) (deref_ptr (mp_dst m)) (deref_ptr dst_t) = true /\
    assignable (d_env d) (deref_ptr (mp_src m)) (deref_ptr src_t) = true.
Proof.
  intros d m src_t dst_t arg_ts ret_err g ev H. unfold build_manipulator in H.
  destruct (negb (str_eqb _ []) && negb (mp_exported m)); [discriminate|].
  destruct (mp_ret_err m && negb ret_err) eqn:E; [discriminate|].
  destruct (assignable (d_env d) (deref_ptr (mp_dst m)) (deref_ptr dst_t)); [|discriminate].
  destruct (assignable (d_env d) (deref_ptr (mp_src m)) (deref_ptr src_t)); [|discriminate].
  repeat split. intros Hm. rewrite Hm in E. now destruct ret_err.
Qed.
Print Assumptions C10_misfit_rejected.

(** Tie to the source, as in props/C01.v ([C01_text_is_what_the_go_code_prints]): the function text the
    theorems of this file speak about is what the translated Go code computes, for every function record. *)
Theorem C10_text_is_what_the_go_code_prints :
  forall f, GoGen.FuncToString (lower_function f) = func_to_string f.
Proof. exact func_to_string_tie. Qed.
Print Assumptions C10_text_is_what_the_go_code_prints.
