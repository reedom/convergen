(** C09 — notation scoping: interface defaults, method overrides, no leakage. *)
From Cvg Require Import Base Dump Options Front.
From Cvg.gen Require Extracted.
From Cvg.proofs Require Import OptionsProofs.
Open Scope N_scope.

(** Interface level: whatever bytes an interface's doc comment holds, the
    options it yields differ from the defaults only in style, match rule and the
    four toggles: no :skip/:map/:conv/:literal entries, no hooks, no receiver,
    no :reverse (proved from the ValidOpsIntf table regenerated from the source:
    adding an operation there re-opens this proof). Hence the Go-level sharing
    of slices between the per-method copies of Options cannot be observed. *)
Theorem C09_intf_level_settings_only :
  forall d cs o, fst (parse_notations d Extracted.valid_ops_intf cs new_options) = Ok o -> lists_empty o.
Proof. exact intf_options_lists_empty. Qed.
Print Assumptions C09_intf_level_settings_only.

(** No leakage between interfaces: each entry's options are parse(its own doc
    comment's notations, defaults). *)
Theorem C09_interfaces_independent :
  forall d st es st' ev,
    find_entries_loop d (d_ifaces d) st [] = (Ok (es, st'), ev) ->
    forall e, In e es -> exists nots ev', parse_notations d Extracted.valid_ops_intf nots new_options = (Ok (ie_opts e), ev').
Proof.
  intros d st es st' ev H. apply find_entries_loop_opts in H as (new & -> & Hn). exact Hn.
Qed.
Print Assumptions C09_interfaces_independent.

(** Inheritance and method-locality: each method entry is parseMethod of its own
    declaration with the interface's options [opts] — the same [opts] for every
    method of the interface, never another method's result — and its options are
    parse(its own notations, opts): interface notation = default, method notation
    = override for that method only ("last wins" is the fold in parse_list). *)
Theorem C09_methods_inherit_and_are_local :
  forall d ms opts st res st' ev,
    parse_methods_loop d ms opts st [] false [] = (Ok res, st', ev) ->
    forall me, In me res ->
      exists st_i ev_i st_j nots,
        parse_method d (me_decl me) opts st_i = ((Ok me, ev_i), st_j) /\
        parse_notations d Extracted.valid_ops_method nots opts = (Ok (me_opts me), ev_i) /\
        nots = fst (extract_notations st_i (get_doc st_i (md_chain (me_decl me)))).
Proof.
  intros d ms opts st res st' ev H me Hin.
  apply parse_methods_loop_opts in H as (new & -> & Hn).
  destruct (Hn me Hin) as (st_i & ev_i & st_j & Hp).
  pose proof Hp as Ho. apply parse_method_opts in Ho as (nots & Ho & Hnots).
  exists st_i, ev_i, st_j, nots. auto.
Qed.
Print Assumptions C09_methods_inherit_and_are_local.

(** a toggle written twice: the last one wins *)
Theorem C09_last_toggle_wins :
  forall o a b, o_typecast (set_typecast (set_typecast o a) b) = b /\ o_exact (set_exact (set_exact o a) b) = b.
Proof. intros. split; reflexivity. Qed.
Print Assumptions C09_last_toggle_wins.
