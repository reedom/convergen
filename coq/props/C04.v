(** C04 — default matching: same name, compatible type, only opted-in conversions. *)
From Cvg Require Import Base GoTypes Dump Options Builder.
From Cvg.proofs Require Import BuilderProofs MatchProofs TypeLaws.
From Cvg Require Import GoFuns.
From Cvg.proofs Require Import UtilTieProofs.
Open Scope N_scope.

(** Where a default-matched entry can come from. For every destination node and
    source struct: the entry is `no match`, or it is built from a candidate that
    is (a) a getter of the source — only when :getter is on — or a field — only
    under :match name —, (b) accessible, (c) same-named under the method's case
    rule, and (d) fits in one of the ways of [from_candidate]: the candidate
    itself when assignable, its String() only with :stringer (target accepts a
    string, candidate has String() string), a conversion only with :typecast
    (convertible), a slice copy (element conversion only with :typecast), or a
    member-wise block for two by-value structs.  Hence no conversion, String()
    call or getter call without its opt-in. *)
Theorem C04_sources_and_optins :
  forall d o mpos s2s lhs R a ev,
    name_match_with d o mpos s2s lhs R = (Ok (Some a), ev) ->
    a = ANoMatch lhs \/
    (exists r, o_getter o = true /\ In r (getter_nodes d R) /\
               is_field_accessible d R (obj_name r) = true /\
               compare_field_name o (obj_name lhs) (obj_name r) = true /\ from_candidate d o lhs r a) \/
    (exists r, str_eqb (o_rule o) rule_name = true /\ In r (field_nodes d R) /\
               is_field_accessible d R (obj_name r) = true /\
               compare_field_name o (obj_name lhs) (obj_name r) = true /\ from_candidate d o lhs r a).
Proof. exact name_match_sources. Qed.
Print Assumptions C04_sources_and_optins.

(** castNode: the three ways a candidate can fit, each guarded by its opt-in and its typing condition. *)
Theorem C04_cast_optins :
  forall d o mpos t r n ev,
    cast_node d o mpos t r = (Ok (Some n), ev) -> cast_shape d o r t n.
Proof. intros d o mpos t r n ev H. now apply yields_intro, cast_node_shape in H. Qed.
Print Assumptions C04_cast_optins.

(** :match none (and no :getter): nothing is matched by name; the field is reported `no match`. *)
Theorem C04_match_none_partial :
  forall d o mpos s2s lhs R a ev,
    str_eqb (o_rule o) rule_name = false -> o_getter o = false ->
    name_match_with d o mpos s2s lhs R = (Ok a, ev) -> a = Some (ANoMatch lhs).
Proof. exact match_none_matches_nothing. Qed.
Print Assumptions C04_match_none_partial.
(** Full statement (":match none: nothing is matched by name at all") fails with
    :getter on: the getter pass runs whatever the rule (DESIGN.md section 7). *)

(** The converse direction. In each pass the FIRST accessible candidate whose name equals the
    field's under the case rule decides, and no later one is consulted (which is why "assigned
    iff some fitting candidate exists" holds only for that first candidate): *)
Theorem C04_first_same_named_candidate_decides :
  forall d o mpos s2s lhs R cands,
    name_pass d o mpos s2s lhs R cands =
      match find (cand_ok d o lhs R) cands with
      | None => ret PNotFound
      | Some r => name_pass d o mpos s2s lhs R [r]
      end.
Proof. exact name_pass_first. Qed.
Print Assumptions C04_first_same_named_candidate_decides.

(** ... if that candidate is assignable as it stands (and the pair is not a slice pair, which is
    copied instead) the field is assigned from it as it stands: *)
Theorem C04_assignable_candidate_is_assigned :
  forall d o mpos s2s lhs R cands r,
    find (cand_ok d o lhs R) cands = Some r ->
    (is_slice (expr_type lhs) && is_slice (expr_type r)) = false ->
    assignable (d_env d) (expr_type r) (expr_type lhs) = true ->
    name_pass d o mpos s2s lhs R cands = ret (PDone (Some (ASimple lhs (RNode r) (returns_error r))) false).
Proof. exact name_pass_assignable. Qed.
Print Assumptions C04_assignable_candidate_is_assigned.

(** ... and when neither the getters (consulted only with :getter) nor the fields (consulted only
    under :match name) offer an accessible member of that name, the field is left over and
    reported `no match`: *)
Theorem C04_no_candidate_no_match :
  forall d o mpos s2s lhs R a ev,
    (o_getter o = true -> forall r, In r (getter_nodes d R) -> cand_ok d o lhs R r = false) ->
    (str_eqb (o_rule o) rule_name = true -> forall r, In r (field_nodes d R) -> cand_ok d o lhs R r = false) ->
    name_match_with d o mpos s2s lhs R = (Ok a, ev) -> a = Some (ANoMatch lhs).
Proof. exact name_match_no_candidate. Qed.
Print Assumptions C04_no_candidate_no_match.

(** In particular a first candidate of exactly the field's type (not a slice) is always assigned
    as it stands: the model's assignability contains identity, which is reflexive (TypeLaws.v:
    the model of go/types' relations obeys the laws the Go specification states for them). *)
Theorem C04_same_type_candidate_is_assigned :
  forall d o mpos s2s lhs R cands r,
    find (cand_ok d o lhs R) cands = Some r ->
    expr_type r = expr_type lhs -> is_slice (expr_type lhs) = false ->
    name_pass d o mpos s2s lhs R cands = ret (PDone (Some (ASimple lhs (RNode r) (returns_error r))) false).
Proof.
  intros d o mpos s2s lhs R cands r Hf Ht Hs.
  apply name_pass_assignable; [exact Hf|now rewrite Hs|rewrite Ht; apply assignable_refl].
Qed.
Print Assumptions C04_same_type_candidate_is_assigned.

(** The laws of the model's type relations (TypeLaws.v) that the theorem above cites. *)
Theorem C04_relation_laws :
  (forall igt t, identical igt t t = true) /\
  (forall E V T, identical false V T = true -> assignable E V T = true) /\
  (forall E V T, assignable E V T = true -> convertible E V T = true).
Proof. exact (conj identical_refl (conj assignable_of_identical convertible_of_assignable)). Qed.
Print Assumptions C04_relation_laws.

(** Tie to the source: the type classes the matching ladder asks about. [GoUtil.IsSliceType] etc. are /repo's pkg/util/types.go
    translated on every run (a type assertion to a class of go/types is the recogniser of the model's
    constructor); the model's predicates are proved equal to them. *)
Theorem C04_type_predicates_are_the_go_code :
  forall t,
    GoUtil.IsSliceType t = is_slice t /\ GoUtil.IsBasicType t = is_basic t /\ GoUtil.IsNamedType t = is_named t /\
    GoUtil.IsPtr t = is_ptr t /\ GoUtil.DerefPtr t = deref_ptr t /\ GoUtil.Deref t = (deref_ptr t, is_ptr t).
Proof.
  intros t.
  exact (conj (is_slice_tie t) (conj (is_basic_tie t) (conj (is_named_tie t) (conj (is_ptr_tie t) (conj (deref_ptr_tie t) (deref_tie t)))))).
Qed.
Print Assumptions C04_type_predicates_are_the_go_code.
