(** ReFuelProofs.v — the regexp parser never exhausts the fuel parse_re gives it. *)
From Cvg Require Import Base Re.
From Cvg.proofs Require Import ReProofs.
Open Scope N_scope.

Local Notation len := (@List.length N).

(** ** the helper readers return no more than their input, and less where they consumed something *)

Lemma tl_len (l : list N) : (len (tl l) <= len l)%nat.
Proof. destruct l; simpl; lia. Qed.

Lemma skip_lazy_len s : (len (skip_lazy s) <= len s)%nat.
Proof. unfold skip_lazy. destruct s as [|c t]; [lia|]. destruct (c =? 63); simpl; lia. Qed.

(** arithmetic on lengths, with the bounds on [tl] and [skip_lazy] where they occur *)
Ltac lenlia :=
  try match goal with |- context [skip_lazy ?l] => pose proof (skip_lazy_len l) end;
  try match goal with _ : context [len (tl ?l)] |- _ => pose proof (tl_len l) end;
  cbn [List.length] in *; lia.

Lemma if_cases {A} (c : bool) (a b x : A) (G : Prop) : (a = x -> G) -> (b = x -> G) -> (if c then a else b) = x -> G.
Proof. now destruct c. Qed.

(** [|- match c with lit => a | _ => b end = x -> G]: the match is a tree over the binary digits of [c]
    with [b] at every leaf but those of the literals.  [b] is read off the leaf of 0 (no literal is 0)
    and named; its case is proved once, and the walk over the digits leaves the literals' cases. *)
Ltac split_lit :=
  lazymatch goal with
  | |- match ?c with N0 => ?b | Npos _ => _ end = _ -> _ =>
      let D := fresh "D" in let d := fresh "d" in
      remember b as d;
      lazymatch goal with |- _ = ?x -> ?G => assert (D : d = x -> G) end;
      [ subst d
      | destruct c as [|c]; [exact D|]; repeat (destruct c as [c|c|]; try exact D); clear D; subst d ]
  end.

(** Case analysis on what the left side of [|- … = x -> G] branches on; it stops at the result of
    another reader, which that reader's lemma is to bound. *)
Ltac split_eq :=
  repeat lazymatch goal with
         | |- (if _ then _ else _) = _ -> _ => apply if_cases
         | |- match ?x with _ => _ end = _ -> _ =>
             lazymatch x with
             | context [read_hex_braced] => fail | context [read_until_brace] => fail
             | _ => lazymatch type of x with N => split_lit | _ => destruct x end
             end
         | |- None = Some _ -> _ => discriminate
         end.

Lemma read_int_len : forall s acc nd v nd' r, read_int s acc nd = (v, nd', r) -> (len r <= len s)%nat.
Proof.
  induction s as [|c s IH]; intros acc nd v nd' r; cbn [read_int]; split_eq.
  all: intros H; first [apply IH in H | injection H as _ _ <-]; lenlia.
Qed.

Lemma parse_repeat_len s mn mx r : parse_repeat s = Some (mn, mx, r) -> (len r < len s)%nat.
Proof.
  unfold parse_repeat. destruct (read_int s 0 0) as [[n nd] s1] eqn:E1. apply read_int_len in E1.
  destruct s1 as [|c s2]; [split_eq|].
  (* the reading of the second number, which the body repeats under every digit of the rune after ',' *)
  set (second := let '(m, md, s3) := read_int s2 0 0 in _). split_eq.
  all: try (intros H; injection H as _ _ <-; lenlia).
  all: subst second; destruct (read_int _ 0 0) as [[m md] s3] eqn:E2; apply read_int_len in E2; split_eq.
  all: intros H; injection H as _ _ <-; lenlia.
Qed.

Lemma is_rparen_len s r : is_rparen s = Some r -> (len r < len s)%nat.
Proof. unfold is_rparen. split_eq. intros H. injection H as <-. lenlia. Qed.

Lemma skip_group_name_len : forall s n r, skip_group_name s n = Some r -> (len r < len s)%nat.
Proof.
  induction s as [|c s IH]; intros n r; cbn [skip_group_name]; split_eq.
  all: intros H; first [injection H as <- | apply IH in H]; lenlia.
Qed.

Lemma parse_flags_hdr_rest_len : forall s f neg sn sf h r, parse_flags_hdr s f neg sn sf = (h, r) -> (len r <= len s)%nat.
Proof.
  induction s as [|c s IH]; intros f neg sn sf h r; cbn [parse_flags_hdr]; split_eq.
  all: intros H; first [injection H as _ <- | apply IH in H]; lenlia.
Qed.

Lemma parse_flags_hdr_len : forall s f neg sn sf, (len (snd (parse_flags_hdr s f neg sn sf)) <= len s)%nat.
Proof. intros. destruct (parse_flags_hdr s f neg sn sf) eqn:E. exact (parse_flags_hdr_rest_len _ _ _ _ _ _ _ E). Qed.

Lemma read_quote_len : forall s acc q r, read_quote s acc = (q, r) -> (len r <= len s)%nat.
Proof.
  induction s as [|c s IH]; intros acc q r; cbn [read_quote]; split_eq.
  all: intros H; first [injection H as _ <- | apply IH in H]; lenlia.
Qed.

Lemma read_hex_braced_len : forall s acc nd v r, read_hex_braced s acc nd = Some (v, r) -> (len r < len s)%nat.
Proof.
  induction s as [|c s IH]; intros acc nd v r; cbn [read_hex_braced]; split_eq.
  all: intros H; first [injection H as _ <- | apply IH in H]; lenlia.
Qed.

Lemma read_until_brace_len : forall s acc q r, read_until_brace s acc = Some (q, r) -> (len r < len s)%nat.
Proof.
  induction s as [|c s IH]; intros acc q r; cbn [read_until_brace]; split_eq.
  all: intros H; first [injection H as _ <- | apply IH in H]; lenlia.
Qed.

Lemma read_posix_len : forall s acc q r, read_posix s acc = Some (q, r) -> (len r < len s)%nat.
Proof.
  induction s as [|c s IH]; intros acc q r; cbn [read_posix]; split_eq.
  all: intros H; first [injection H as _ <- | apply IH in H]; lenlia.
Qed.

Lemma parse_escape_len U b s e r : parse_escape U b s = (e, r) -> (len r <= len s)%nat.
Proof.
  unfold parse_escape. split_eq.
  all: try (destruct (read_hex_braced _ _ _) as [[? ?]|] eqn:E; [apply read_hex_braced_len in E|]).
  all: try (destruct (read_until_brace _ _) as [[? ?]|] eqn:E; [apply read_until_brace_len in E|]; split_eq).
  all: intros H; injection H as _ <-; lenlia.
Qed.

(** the optional '^' after '[', as [parse_seq] reads it (an anonymous match there) *)
Lemma class_head_len (l : list N) b l0 :
  match l with h :: t => if h =? 94 then (true, t) else (false, l) | [] => (false, l) end = (b, l0) -> (len l0 <= len l)%nat.
Proof. split_eq; intros H; injection H as _ <-; lenlia. Qed.

(** ** fuel suffices
    [ok_le r s], [ok3 r s]: the run [r] did not run out of fuel, and what it left of the input is no
    longer than [s] (results of two and of three components). *)

Definition ok_le {A} (r : pres (A * list N)) (s : list N) : Prop :=
  r <> PFuel /\ forall a rest, r = POk (a, rest) -> (len rest <= len s)%nat.

Definition ok3 (r : pres (re * list N * flags)) (s : list N) : Prop :=
  r <> PFuel /\ forall a rest f, r = POk (a, rest, f) -> (len rest <= len s)%nat.

Lemma ok_le_ok {A} (a : A) rest s : (len rest <= len s)%nat -> ok_le (POk (a, rest)) s.
Proof. intros L. split; [discriminate|]. intros ? ? E. now injection E as _ <-. Qed.

Lemma ok_le_weaken {A} (r : pres (A * list N)) s s0 : ok_le r s -> (len s <= len s0)%nat -> ok_le r s0.
Proof. intros [H1 H2] L. split; [exact H1|]. intros a rest E. specialize (H2 a rest E). lia. Qed.

Lemma ok3_ok a rest f s : (len rest <= len s)%nat -> ok3 (POk (a, rest, f)) s.
Proof. intros L. split; [discriminate|]. intros ? ? ? E. now injection E as _ <- _. Qed.

Lemma ok3_weaken r s s0 : ok3 r s -> (len s <= len s0)%nat -> ok3 r s0.
Proof. intros [H1 H2] L. split; [exact H1|]. intros a rest f E. specialize (H2 a rest f E). lia. Qed.

(** The walk through a parser's body: split on the scrutinee at the head, unless it is a call of a
    parser; the equation is kept where the scrutinee may be the result of a reader. *)
Ltac split_scrutinee :=
  match goal with
  | |- _ (match ?x with _ => _ end) _ =>
      lazymatch type of x with
      | pres _ => fail
      | bool => destruct x
      | _ => tryif is_var x then destruct x else destruct x eqn:?
      end
  end.

(** the equation a reader's result came with becomes the bound on that result *)
Ltac len_facts :=
  repeat match goal with
         | E : parse_escape _ _ _ = _ |- _ => apply parse_escape_len in E
         | E : read_posix _ _ = Some _ |- _ => apply read_posix_len in E
         | E : parse_repeat _ = Some _ |- _ => apply parse_repeat_len in E
         | E : skip_group_name _ _ = Some _ |- _ => apply skip_group_name_len in E
         | E : read_quote _ _ = _ |- _ => apply read_quote_len in E
         | E : match ?l with [] => _ | _ :: _ => _ end = (_, _) |- _ => apply class_head_len in E
         | E : parse_flags_hdr _ _ _ _ _ = _ |- _ => apply parse_flags_hdr_rest_len in E
         end.

(** ** the class-body parser
    The measure: two units of fuel per rune — one in parse_class_body, which consumes it, one in
    parse_class_item, which hands back without consuming — and one more for a run that starts in
    parse_class_item. *)
Lemma class_body_fuel U : forall fuel,
  (forall s first acc, (2 * len s + 1 <= fuel)%nat -> ok_le (parse_class_body U fuel s first acc) s) /\
  (forall lo s acc, (2 * len s + 2 <= fuel)%nat -> ok_le (parse_class_item U fuel lo s acc) s).
Proof.
  induction fuel as [|f [IHb IHi]]; [split; simpl in *; lia|].
  split.
  - intros s first acc Hf. cbn [parse_class_body]. repeat split_scrutinee.
    all: len_facts.
    all: first [ apply ok_le_ok; lenlia | eapply ok_le_weaken; [apply IHb|]; lenlia
               | eapply ok_le_weaken; [apply IHi|]; lenlia | split; discriminate ].
  - intros lo s acc Hf. cbn [parse_class_item]. repeat split_scrutinee.
    all: len_facts.
    all: first [ eapply ok_le_weaken; [apply IHb|]; lenlia | split; discriminate ].
Qed.

(** ** the regexp parser proper
    The same measure: parse_seq consumes a rune per unit, parse_altn hands on to it without
    consuming, at most once per rune; parse_re gives three units per rune and six to spare.  The
    hypotheses bound what a run leaves against any [s0] at least as long as its input: the callers
    have the input of the step at hand, not that of the call. *)
Section FuelStep.
  Variable U : utables.
  Variable n : nat.
  Hypothesis Ha : forall s0 f s d, (2 * len s + 2 <= n)%nat -> (len s <= len s0)%nat -> ok_le (parse_altn U n f s d) s0.
  Hypothesis Hs : forall s0 f s d acc cur, (2 * len s + 1 <= n)%nat -> (len s <= len s0)%nat -> ok3 (parse_seq U n f s d acc cur) s0.

  Lemma altn_step_fuel f s d : (2 * len s + 2 <= S n)%nat -> ok_le (parse_altn U (S n) f s d) s.
  Proof.
    intros Hf. cbn [parse_altn].
    destruct (Hs s f s d Eps NoAtom ltac:(lia) ltac:(lia)) as [H1 H2].
    destruct (parse_seq U n f s d Eps NoAtom) as [[[r rest] f']| | |]; [|split; discriminate..|easy].
    specialize (H2 _ _ _ eq_refl).
    destruct rest as [|c rest1]; [now apply ok_le_ok|].
    destruct (c =? 124); [|now apply ok_le_ok]. cbn [List.length] in H2.
    destruct (Ha s f' rest1 d ltac:(lia) ltac:(lia)) as [H3 H4].
    destruct (parse_altn U n f' rest1 d) as [[r2 rest2]| | |]; [|split; discriminate..|easy].
    apply ok_le_ok, (H4 _ _ eq_refl).
  Qed.

  Lemma group_fuel s f d flush fin body :
    (2 * len s + 1 <= S n)%nat -> (len body < len s)%nat -> ok3 (group_body U n f d flush fin body) s.
  Proof.
    intros Hf L. unfold group_body. destruct (Ha body fin body (S d) ltac:(lia) ltac:(lia)) as [G1 G2].
    destruct (parse_altn U n fin body (S d)) as [[r rest]| | |]; [|split; discriminate..|easy].
    specialize (G2 _ _ eq_refl).
    destruct (is_rparen rest) as [rest'|] eqn:E; [|split; discriminate].
    apply is_rparen_len in E. apply Hs; lia.
  Qed.

  Lemma class_fuel s f d flush neg s1 :
    (2 * len s + 1 <= S n)%nat -> (len s1 < len s)%nat ->
    ok3 match parse_class_body U (S (S (len s1)) * 2) s1 true [] with
        | POk (rs, rest) => parse_seq U n f rest d flush (HasAtom (Cls neg rs (fl_i f)) false)
        | PErr => PErr | PUnsup => PUnsup | PFuel => PFuel
        end s.
  Proof.
    intros Hf L. destruct (proj1 (class_body_fuel U (S (S (len s1)) * 2)) s1 true [] ltac:(lia)) as [C1 C2].
    destruct (parse_class_body U _ s1 true []) as [[rs rest]| | |]; [|split; discriminate..|easy].
    specialize (C2 _ _ eq_refl). apply Hs; lia.
  Qed.

  Lemma seq_step_fuel f s d acc cur : (2 * len s + 1 <= S n)%nat -> ok3 (parse_seq U (S n) f s d acc cur) s.
  Proof.
    intros Hf. cbn [parse_seq]. repeat split_scrutinee.
    all: len_facts.
    all: first [ apply ok3_ok; lenlia | apply Hs; lenlia | apply group_fuel; lenlia | apply class_fuel; lenlia
               | split; discriminate ].
  Qed.
End FuelStep.

Theorem parser_fuel U : forall n,
  (forall s0 f s d, (2 * len s + 2 <= n)%nat -> (len s <= len s0)%nat -> ok_le (parse_altn U n f s d) s0) /\
  (forall s0 f s d acc cur, (2 * len s + 1 <= n)%nat -> (len s <= len s0)%nat -> ok3 (parse_seq U n f s d acc cur) s0).
Proof.
  induction n as [|n [IHa IHs]]; [split; lia|].
  split.
  - intros s0 f s d Hf Hl. eapply ok_le_weaken; [apply altn_step_fuel; assumption|exact Hl].
  - intros s0 f s d acc cur Hf Hl. eapply ok3_weaken; [apply seq_step_fuel; assumption|exact Hl].
Qed.

(** regexp.Compile in the model always gets enough fuel *)
Theorem parse_re_never_out_of_fuel U e : parse_re U e <> PFuel.
Proof.
  unfold parse_re. destruct (negb (str_eqb (encode (decode e)) e)); [discriminate|].
  destruct (proj1 (parser_fuel U (S (S (len (decode e))) * 3)) (decode e) flags0 (decode e) 0%nat ltac:(lia) ltac:(lia)) as [H _].
  destruct (parse_altn U (S (S (len (decode e))) * 3) flags0 (decode e) 0) as [[r [|c rest]]| | |]; try discriminate. congruence.
Qed.
