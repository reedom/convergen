(** SemProofs.v — the statement list is what FuncToString prints; every
    error-capable call in it is checked; hence the first error is returned and
    nothing runs after it (C07); hooks are placed once, first and last (C10). *)
From Coq Require Import String.
From Cvg Require Import Base Builder Gen Sem.
From Cvg.proofs Require Import BuilderProofs.
Open Scope N_scope.

Lemma concat_str_app l1 l2 : concat_str (l1 ++ l2) = concat_str l1 ++ concat_str l2.
Proof. induction l1 as [|x xs IH]; simpl; [reflexivity|]. now rewrite IH, app_assoc. Qed.

Lemma pp_app l1 l2 : pp (l1 ++ l2) = pp l1 ++ pp l2.
Proof. unfold pp. now rewrite map_app, concat_str_app. Qed.

Lemma pp_concat ls : pp (List.concat ls) = concat_str (List.map pp ls).
Proof. induction ls as [|l ls IH]; [reflexivity|]. cbn [List.concat List.map concat_str]. now rewrite pp_app, IH. Qed.

Lemma astmts_pp f : forall a, pp (astmts f a) = assignment_to_string f a.
Proof.
  induction a as [l|l|l r [|]|cs IH|l r t|l r t|l r t c] using assignment_nest_ind; try reflexivity.
  - unfold pp. cbn. now rewrite app_nil_r.
  - cbn [astmts assignment_to_string]. now rewrite pp_concat, map_map, (map_ext_Forall _ _ IH).
Qed.

Lemma assignments_pp f l :
  pp (List.concat (List.map (astmts f) l)) = concat_str (List.map (assignment_to_string f) l).
Proof. rewrite pp_concat, map_map. f_equal. apply map_ext, astmts_pp. Qed.

Lemma hook_pp f m :
  pp (hook_stmts f m) = match m with Some m => manipulator_to_string m (fn_src f) (hook_dst f) (fn_args f) | None => [] end.
Proof.
  destruct m as [m|]; [|reflexivity].
  unfold hook_stmts, manipulator_to_string, pp.
  destruct (gm_ret_err m); cbn [List.map stmt_text concat_str]; rewrite ?app_nil_r; reflexivity.
Qed.

Theorem func_to_string_is_pp f :
  func_to_string f =
    concat_str (List.map (fun c => c ++ nl) (fn_comments f)) ++ func_header f ++ pp (body_of f) ++ s2b "}" ++ nl ++ nl.
Proof.
  unfold func_to_string, body_of. rewrite !pp_app, assignments_pp, !hook_pp, <- !app_assoc.
  unfold init_stmts, final_stmts, pp.
  destruct (_ && _), (_ || _); cbn [List.map stmt_text concat_str]; rewrite ?app_nil_r; reflexivity.
Qed.

(** ** the body is a sequence of units: an error-setting statement always comes with its check *)
Inductive units : list stmt -> Prop :=
| UNil : units []
| URaw t l : units l -> units (SRaw t :: l)
| UAssign t s c l : units l -> units (SAssignErr t s :: SIfErr c :: l)
| UHookErr t s c l : units l -> units (SHook t s true :: SIfErr c :: l)
| UHook t s l : units l -> units (SHook t s false :: l)
| URet t : units [SReturn t].

Fixpoint no_return (l : list stmt) : Prop :=
  match l with [] => True | SReturn _ :: _ => False | _ :: l' => no_return l' end.

Lemma no_return_not_ends l : no_return l -> forall l0 t, l <> l0 ++ [SReturn t].
Proof. intros H l0 t ->. induction l0 as [|x l0 IH]; [exact H|]. destruct x; simpl in H; auto. Qed.

(** among units a return can only be the last statement *)
Lemma units_no_return l : units l -> (forall l0 t, l <> l0 ++ [SReturn t]) -> no_return l.
Proof.
  induction 1 as [|t l _ IH|t s c l _ IH|t s c l _ IH|t s l _ IH|t]; intros Hr; cbn; trivial.
  1-4: apply IH; intros l0 t0 ->;
    first [exact (Hr (_ :: l0) t0 eq_refl)|exact (Hr (_ :: _ :: l0) t0 eq_refl)].
  exact (Hr [] t eq_refl).
Qed.

Lemma units_app_nr l1 l2 : units l1 -> no_return l1 -> units l2 -> units (l1 ++ l2).
Proof.
  intros H1 Hn H2. induction H1; simpl in *; try (constructor; auto); try assumption. destruct Hn.
Qed.

Lemma units_app l1 l2 : units l1 -> units l2 -> (forall t, l1 <> [SReturn t]) ->
  (forall l t, l1 <> l ++ [SReturn t]) -> units (l1 ++ l2).
Proof. intros H1 H2 _ Hr. apply units_app_nr; auto using units_no_return. Qed.

Lemma no_return_app l1 l2 : no_return l1 -> no_return l2 -> no_return (l1 ++ l2).
Proof. induction l1 as [|x l1 IH]; simpl; [auto|]. destruct x; auto. Qed.

(** the parts of the body before the final return are units without a return, and so is what is made of such parts *)
Lemma units_nr_app l1 l2 :
  units l1 /\ no_return l1 -> units l2 /\ no_return l2 -> units (l1 ++ l2) /\ no_return (l1 ++ l2).
Proof. intros [] []. split; [apply units_app_nr|apply no_return_app]; assumption. Qed.

Lemma units_nr_concat ls :
  Forall (fun l => units l /\ no_return l) ls -> units (List.concat ls) /\ no_return (List.concat ls).
Proof. induction 1; [split; [constructor|exact I]|]. now apply units_nr_app. Qed.

Lemma astmts_units f : forall a, units (astmts f a) /\ no_return (astmts f a).
Proof.
  induction a as [l|l|l r [|]|cs IH|l r t|l r t|l r t c] using assignment_nest_ind;
    try (split; [repeat constructor|exact I]).
  apply units_nr_concat, Forall_map, IH.
Qed.

Lemma assignments_units f l : units (List.concat (List.map (astmts f) l)) /\ no_return (List.concat (List.map (astmts f) l)).
Proof. apply units_nr_concat, Forall_map, Forall_forall. intros a _. apply astmts_units. Qed.

Lemma hook_units f m : units (hook_stmts f m) /\ no_return (hook_stmts f m).
Proof. destruct m as [m|]; [|split; [constructor|exact I]]. unfold hook_stmts. destruct (gm_ret_err m); split; simpl; repeat constructor. Qed.

(** the body without its final return statement *)
Definition body_prefix (f : function) : list stmt :=
  init_stmts f ++ hook_stmts f (fn_pre f) ++
  List.concat (List.map (astmts f) (fn_assignments f)) ++ hook_stmts f (fn_post f).

Lemma body_of_prefix f : body_of f = body_prefix f ++ final_stmts f.
Proof. unfold body_of, body_prefix. now rewrite <- !app_assoc. Qed.

Lemma body_prefix_units f : units (body_prefix f) /\ no_return (body_prefix f).
Proof.
  unfold body_prefix. repeat apply units_nr_app; auto using hook_units, assignments_units.
  unfold init_stmts. destruct (_ && _); split; simpl; repeat constructor.
Qed.

Lemma body_split f : exists t, body_of f = body_prefix f ++ [SReturn t] /\ no_return (body_prefix f).
Proof.
  rewrite body_of_prefix. unfold final_stmts.
  destruct (_ || _); eexists; (split; [reflexivity|apply body_prefix_units]).
Qed.

Theorem body_units f : units (body_of f).
Proof.
  destruct (body_split f) as (t & -> & Hn). apply units_app_nr; [apply body_prefix_units|exact Hn|constructor].
Qed.

(** ** C07: the first failing call's error is returned and nothing is called after it *)
Section Flow.
  Variable E : Type.
  Variable fails : site -> option E.

  (** the declarative reading: scan the error-capable sites in order *)
  Fixpoint spec (l : list stmt) (tr : list site) : run_result E :=
    match l with
    | [] => Returned E None tr
    | SAssignErr _ s :: l' =>
        match fails s with Some e => Returned E (Some e) (tr ++ [s]) | None => spec l' (tr ++ [s]) end
    | SHook _ s true :: l' =>
        match fails s with Some e => Returned E (Some e) (tr ++ [s]) | None => spec l' (tr ++ [s]) end
    | SHook _ s false :: l' => spec l' (tr ++ [s])
    | SReturn _ :: _ => Returned E None tr
    | _ :: l' => spec l' tr
    end.

  Theorem exec_is_spec l : units l -> forall tr, exec E fails l None tr = spec l tr.
  Proof.
    induction 1 as [|t l _ IH|t s c l _ IH|t s c l _ IH|t s l _ IH|t]; intros tr; simpl; auto.
    (* left: the two units that set err *)
    all: destruct (fails s); auto.
  Qed.

  (** as long as nothing fails, every site is called, in order *)
  Lemma spec_app l l' : (forall s, In s (sites l) -> fails s = None) -> no_return l ->
    forall tr, spec (l ++ l') tr = spec l' (tr ++ sites l).
  Proof.
    induction l as [|x l IH]; intros Hf Hn tr; simpl; [now rewrite app_nil_r|].
    destruct x as [t|t s|t s [|]|t|t]; simpl in *; try rewrite (Hf s (or_introl eq_refl));
      rewrite ?IH, <- ?app_assoc; auto; contradiction.
  Qed.

  Lemma spec_no_failure l : (forall s, In s (sites l) -> fails s = None) -> no_return l ->
    forall tr, spec l tr = Returned E None (tr ++ sites l).
  Proof. intros Hf Hn tr. rewrite <- (app_nil_r l) at 1. now rewrite spec_app. Qed.

  Lemma spec_no_failure_ret l t : (forall s, In s (sites l) -> fails s = None) -> no_return l ->
    forall tr, spec (l ++ [SReturn t]) tr = Returned E None (tr ++ sites l).
  Proof. intros Hf Hn tr. now rewrite spec_app. Qed.
End Flow.

Lemma sites_app l1 l2 : sites (l1 ++ l2) = sites l1 ++ sites l2.
Proof. induction l1 as [|x l1 IH]; simpl; [reflexivity|]. destruct x; simpl; rewrite ?IH; reflexivity. Qed.

Lemma sites_prefix f : sites (body_of f) = sites (body_prefix f).
Proof. destruct (body_split f) as (t & -> & _). rewrite sites_app. simpl. now rewrite app_nil_r. Qed.

(** no user function fails: nil is returned and every call site of the body was called, in order, once *)
Theorem exec_without_failure (E : Type) (fails : site -> option E) f :
  (forall s, In s (sites (body_of f)) -> fails s = None) ->
  exec E fails (body_of f) None [] = Returned E None (sites (body_of f)).
Proof.
  intros Hf. rewrite (exec_is_spec E fails _ (body_units f)).
  rewrite sites_prefix in *. destruct (body_split f) as (t & -> & Hn).
  rewrite (spec_no_failure_ret E fails _ t Hf Hn). reflexivity.
Qed.

Theorem body_shape f :
  body_of f = init_stmts f ++ hook_stmts f (fn_pre f) ++
              List.concat (List.map (astmts f) (fn_assignments f)) ++ hook_stmts f (fn_post f) ++ final_stmts f.
Proof. reflexivity. Qed.

(** the preprocess hook is the first call of the body, the postprocess hook the last *)
Theorem body_sites f :
  sites (body_of f) =
    (match fn_pre f with Some m => [hook_site m] | None => [] end) ++
    sites (List.concat (List.map (astmts f) (fn_assignments f))) ++
    (match fn_post f with Some m => [hook_site m] | None => [] end).
Proof.
  rewrite sites_prefix. unfold body_prefix. rewrite !sites_app.
  assert (Hh : forall m, sites (hook_stmts f m) = match m with Some m => [hook_site m] | None => [] end).
  { intros [m|]; [|reflexivity]. unfold hook_stmts. destruct (gm_ret_err m); reflexivity. }
  rewrite !Hh. unfold init_stmts. destruct (_ && _); reflexivity.
Qed.

(** the &/* adaptation, stated on its own (no lemma connects it to [Gen.hook_call_text], which makes the
    same choice of prefix): the pointer-ness [prefix ++ name] has is the one the hook declares *)
Definition adapted_ptr (var_ptr want_ptr : bool) : bool :=
  if Bool.eqb var_ptr want_ptr then var_ptr else if var_ptr then false (* *v *) else true (* &v *).

Lemma adaptation_correct var_ptr want_ptr : adapted_ptr var_ptr want_ptr = want_ptr.
Proof. destruct var_ptr, want_ptr; reflexivity. Qed.
