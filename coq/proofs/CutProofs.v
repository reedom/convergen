(** CutProofs.v — the law of the regexp cut of GenerateBaseCode: in a printed text in
    which the marker occurs exactly twice, everything from the start of the line of the
    first occurrence through the second occurrence is replaced by the marker, whatever
    lies between them (one line or many), and nothing else changes. *)
From Coq Require Import String.
From Cvg Require Import Base BaseCode.

Open Scope nat_scope.

Definition occ (m s : str) (k : nat) : bool := is_prefix m (skipn k s).

Lemma skipn_add {A} (j k : nat) : forall (s : list A), skipn j (skipn k s) = skipn (k + j) s.
Proof. induction k as [|k IH]; intros s; [reflexivity|]. destruct s; [now rewrite !skipn_nil|]. apply IH. Qed.

Lemma length_pos {A} (l : list A) : l <> [] -> 0 < List.length l.
Proof. destruct l; [contradiction|simpl; lia]. Qed.

Lemma occ_skipn m s k j : occ m (skipn k s) j = occ m s (k + j).
Proof. unfold occ. now rewrite skipn_add. Qed.

Lemma occ_app_r m a s j : occ m (a ++ s) (List.length a + j) = occ m s j.
Proof. now rewrite <- occ_skipn, skipn_length_app. Qed.

Lemma occ_app_l m a b : occ m (a ++ m ++ b) (List.length a) = true.
Proof. rewrite <- (Nat.add_0_r (List.length a)), occ_app_r. apply is_prefix_app. Qed.

Definition no_nl (s : str) : Prop := forall c, In c s -> c <> 10%N.

Lemma line_len_app a b : no_nl a -> line_len (a ++ b) = List.length a + line_len b.
Proof.
  induction a as [|c a IH]; intros H; [reflexivity|]. cbn [app line_len List.length].
  destruct (N.eqb_spec c 10) as [->|_]; [exfalso; apply (H 10%N); [now left|reflexivity]|].
  rewrite IH; [reflexivity|]. intros x Hx. apply H. now right.
Qed.

Lemma line_len_le s : line_len s <= List.length s.
Proof. induction s as [|c s IH]; simpl; [lia|]. destruct (c =? 10)%N; lia. Qed.

Lemma line_len_nl a b : line_len (a ++ 10%N :: b) <= List.length a.
Proof. induction a as [|c a IH]; simpl; [lia|]. destruct (c =? 10)%N; lia. Qed.

Lemma is_prefix_before_nl m : no_nl m -> forall a b, is_prefix m (a ++ 10%N :: b) = true -> is_prefix m a = true.
Proof.
  induction m as [|y m IH]; intros Hm a b; [reflexivity|]. destruct a as [|x a]; simpl.
  - intros [E%N.eqb_eq _]%andb_true_iff. destruct (Hm y); [now left|exact E].
  - intros [-> H]%andb_true_iff. exact (IH (fun c Hc => Hm c (or_intror Hc)) a b H).
Qed.

Lemma is_prefix_extend m a b : is_prefix m a = true -> is_prefix m (a ++ b) = true.
Proof. intros [t ->]%is_prefix_spec. rewrite <- app_assoc. apply is_prefix_app. Qed.

(** What is read from a position inside a prefix that is empty or ends a line:
    the rest of that line, which lies inside the prefix, a newline, and what follows the prefix. *)
Lemma skipn_in_lines pre k :
  (pre = [] \/ exists p, pre = p ++ [10%N]) -> k < List.length pre ->
  exists l, k + List.length l < List.length pre /\ forall s, skipn k (pre ++ s) = l ++ 10%N :: s.
Proof.
  intros [->|(p & ->)] Hk; [inversion Hk|]. rewrite app_length in *. cbn [List.length] in *.
  exists (skipn k p). split; [rewrite skipn_length; lia|].
  intros s. rewrite <- app_assoc, skipn_app. now replace (k - List.length p) with 0 by lia.
Qed.

Lemma first_some_none f l : (forall p, In p l -> f p = None) -> first_some f l = None.
Proof.
  induction l as [|p l IH]; intros H; simpl; [reflexivity|].
  rewrite (H p (or_introl eq_refl)). apply IH. intros q Hq. apply H. now right.
Qed.

Lemma first_some_same f l e :
  (forall p, In p l -> f p = None \/ f p = Some e) -> (exists p, In p l /\ f p = Some e) ->
  first_some f l = Some e.
Proof.
  induction l as [|p l IH]; intros Hall (q & Hq & Hf); [destruct Hq|]. simpl.
  destruct (Hall p (or_introl eq_refl)) as [Hn| ->]; [rewrite Hn|reflexivity].
  apply IH; [intros x Hx; apply Hall; now right|].
  destruct Hq as [<-|Hq]; [congruence|eauto].
Qed.

Section Marker.
  Variable m : str.
  Hypothesis Hm : m <> [].

  Lemma occ_lt s k : occ m s k = true -> k < List.length s.
  Proof.
    intros Ho. destruct (Nat.lt_ge_cases k (List.length s)) as [|Hk]; [assumption|].
    unfold occ in Ho. rewrite skipn_all2 in Ho by exact Hk. destruct m; [contradiction|discriminate].
  Qed.

  Lemma occs_within_In : forall n s i p,
    In p (occs_within m s n i) <-> exists j, j < n /\ p = i + j /\ occ m s j = true.
  Proof.
    induction n as [|n IH]; intros s i p.
    - destruct s; (split; [intros []|intros (j & Hj & _); lia]).
    - destruct s as [|c s'].
      + split; [intros []|intros (j & _ & _ & Ho%occ_lt); inversion Ho].
      + cbn [occs_within]. rewrite in_app_iff, IH. split.
        * intros [H|(j & Hj & -> & Ho)].
          -- destruct (is_prefix m (c :: s')) eqn:E; [|destruct H]. destruct H as [<-|[]].
             exists 0. repeat split; try lia. exact E.
          -- exists (S j). repeat split; try lia. exact Ho.
        * intros ([|j] & Hj & -> & Ho).
          -- left. unfold occ in Ho. simpl in Ho. rewrite Ho. left. lia.
          -- right. exists j. repeat split; try lia. exact Ho.
  Qed.

  Lemma find_from_spec s i :
    match find_from m s i with
    | Some r => exists j, r = i + j /\ occ m s j = true /\ forall j', j' < j -> occ m s j' = false
    | None => forall j, occ m s j = false
    end.
  Proof.
    revert i. induction s as [|c s IH]; intros i; cbn [find_from].
    - destruct m; [contradiction|]. intros j. unfold occ. now rewrite skipn_nil.
    - destruct (is_prefix m (c :: s)) eqn:E.
      + exists 0. repeat split; [lia|exact E|intros; lia].
      + specialize (IH (S i)). destruct (find_from m s (S i)).
        * destruct IH as (j & -> & Ho & Hmin). exists (S j). repeat split; [lia|exact Ho|].
          intros [|j'] Hj; [exact E|]. apply Hmin. lia.
        * intros [|j]; [exact E|apply IH].
  Qed.

  (** [try_end] answers with the end of an occurrence that does not overlap the one at [p], and with
      [None] only if there is none. Which one it picks among several (the greedy .* and the lazy
      tail of the regexp decide that) plays no part below, where only one is left. *)
  Lemma try_end_spec s p :
    match try_end m s p with
    | Some e => exists j, occ m s (p + List.length m + j) = true /\ e = p + List.length m + j + List.length m
    | None => forall j, occ m s (p + List.length m + j) = false
    end.
  Proof.
    unfold try_end.
    set (q0 := p + List.length m). set (rest := skipn q0 s). set (rl := line_len rest).
    pose proof (find_from_spec (skipn rl rest) 0) as Hf.
    destruct (find_from m (skipn rl rest) 0) as [k|].
    { destruct Hf as (j & -> & Ho & _). rewrite occ_skipn in Ho.
      exists (rl + j). rewrite <- occ_skipn. split; [exact Ho|lia]. }
    pose proof (in_rev (occs_within m rest (S rl) 0)) as Hrev.
    destruct (rev (occs_within m rest (S rl) 0)) as [|last l].
    - intros j. rewrite <- occ_skipn. fold rest. destruct (occ m rest j) eqn:Ho; [exfalso|reflexivity].
      destruct (Nat.le_gt_cases j rl) as [Hle|Hgt].
      + (* on the rest of the line: it would be in the list *)
        apply (Hrev j), occs_within_In. exists j. repeat split; [lia|exact Ho].
      + (* beyond it: [find_from] would have found it *)
        specialize (Hf (j - rl)). rewrite occ_skipn in Hf.
        replace (rl + (j - rl)) with j in Hf by lia. congruence.
    - assert (Hin : In last (occs_within m rest (S rl) 0)) by (apply Hrev; now left).
      apply occs_within_In in Hin as (j & _ & -> & Ho).
      exists j. rewrite <- occ_skipn. split; [exact Ho|lia].
  Qed.

  Lemma match_here_none s :
    (forall j, 1 <= j -> j < line_len s -> occ m s j = false) -> match_here m s = None.
  Proof.
    intros H. unfold match_here. apply first_some_none. intros p [Hp H1%Nat.leb_le]%in_rev%filter_In.
    apply occs_within_In in Hp as (j & Hj & -> & Ho). rewrite H in Ho; [discriminate|exact H1|exact Hj].
  Qed.

  (** When [m] occurs exactly twice in [s], at [a] on the first line of [s] but not at its head, and
      [d] bytes after the end of that occurrence, the regexp matches at the head of [s] through the second. *)
  Section TwoOccurrences.
    Variables (s : str) (a d : nat).
    Hypothesis Ha : occ m s a = true.
    Hypothesis Hd : occ m s (a + List.length m + d) = true.
    Hypothesis Honly : forall j, occ m s j = true -> j = a \/ j = a + List.length m + d.

    Lemma try_end_second : try_end m s (a + List.length m + d) = None.
    Proof.
      pose proof (try_end_spec s (a + List.length m + d)) as H. destruct (try_end m s _); [exfalso|reflexivity].
      destruct H as (j & Ho & _). pose proof (length_pos m Hm). destruct (Honly _ Ho); lia.
    Qed.

    Lemma try_end_first : try_end m s a = Some (a + List.length m + d + List.length m).
    Proof.
      pose proof (try_end_spec s a) as H. destruct (try_end m s a).
      - destruct H as (j & Ho & ->). pose proof (length_pos m Hm).
        destruct (Honly _ Ho) as [E|E]; [lia|]. now apply Nat.add_cancel_l in E as ->.
      - now rewrite H in Hd.
    Qed.

    Lemma match_here_two : 1 <= a < line_len s -> match_here m s = Some (a + List.length m + d + List.length m).
    Proof.
      intros Hline. unfold match_here. apply first_some_same.
      - intros p [Hp _]%in_rev%filter_In. apply occs_within_In in Hp as (j & _ & -> & Ho).
        destruct (Honly _ Ho) as [->| ->]; [right; apply try_end_first|left; apply try_end_second].
      - exists a. split; [|apply try_end_first].
        apply -> in_rev. apply filter_In. split; [|now apply Nat.leb_le].
        apply occs_within_In. exists a. repeat split; [lia|exact Ha].
    Qed.
  End TwoOccurrences.
End Marker.

Lemma cut_aux_id m : forall f s, (forall k, match_here m (skipn k s) = None) -> cut_aux f m s = s.
Proof.
  induction f as [|f IH]; intros s H; [reflexivity|]. destruct s as [|c s']; [reflexivity|].
  cbn [cut_aux]. rewrite (H 0 : match_here m (c :: s') = None). f_equal.
  apply IH. intros k. apply (H (S k)).
Qed.

Lemma cut_aux_prefix m : forall pre f s,
  (forall k, k < List.length pre -> match_here m (skipn k (pre ++ s)) = None) ->
  cut_aux (List.length pre + f) m (pre ++ s) = pre ++ cut_aux f m s.
Proof.
  induction pre as [|c pre IH]; intros f s H; [reflexivity|].
  cbn [List.length Nat.add app cut_aux].
  rewrite (H 0 (Nat.lt_0_succ _) : match_here m (c :: pre ++ s) = None). f_equal.
  apply IH. intros k Hk. apply (H (S k)). simpl. lia.
Qed.

Lemma cut_aux_step m f s len :
  match_here m s = Some len -> cut_aux (S f) m s = m ++ cut_aux f m (skipn len s).
Proof. intros H. destruct s as [|c s']; [discriminate|]. cbn [cut_aux]. now rewrite H. Qed.

Section Cut.
  Variables m L X post : str.

  Let lenL := List.length L.
  Let lenM := List.length m.
  Let lenX := List.length X.
  Let s0 := L ++ m ++ X ++ m ++ post.
  Let second := lenL + lenM + lenX.

  Lemma occ_second : occ m s0 second = true.
  Proof.
    unfold s0, second. rewrite <- Nat.add_assoc, !occ_app_r. apply occ_app_l.
  Qed.

  Lemma skip_second : skipn (second + lenM) s0 = post.
  Proof.
    unfold s0, second, lenL, lenM, lenX. now rewrite <- !skipn_add, !skipn_length_app.
  Qed.

  Hypothesis Hm : m <> [].
  Hypothesis Hm_nl : no_nl m.
  Hypothesis HL : L <> [].
  Hypothesis HL_nl : no_nl L.
  (** the marker occurs exactly twice *)
  Hypothesis Honly : forall j, occ m s0 j = true -> j = lenL \/ j = second.

  Lemma post_no_occ j : occ m post j = false.
  Proof.
    rewrite <- skip_second, occ_skipn. destruct (occ m s0 (second + lenM + j)) eqn:E; [|reflexivity].
    pose proof (length_pos m Hm). destruct (Honly _ E); lia.
  Qed.

  (** from the start of the line of the first marker: the marker, then [post] unchanged *)
  Lemma cut_marker_line f : cut_aux (S f) m s0 = m ++ post.
  Proof.
    rewrite (cut_aux_step m f s0 (second + lenM)).
    - f_equal. rewrite skip_second. apply cut_aux_id. intros k.
      apply match_here_none; [exact Hm|]. intros j _ _. rewrite occ_skipn. apply post_no_occ.
    - apply (match_here_two m Hm s0 lenL lenX (occ_app_l m L _) occ_second Honly).
      unfold s0. rewrite line_len_app, line_len_app by assumption.
      pose proof (length_pos m Hm). pose proof (length_pos L HL). lia.
  Qed.
End Cut.

(** The law. [text] is the printed file: [pre] ends a line (or is empty), the line of the
    first marker starts with the non-empty [L] (the regexp's .+), [X] is everything between
    the two markers (the rest of that line and any number of further lines, or nothing),
    and the marker occurs nowhere else. *)
Theorem cut_law m pre L X post :
  m <> [] -> no_nl m -> L <> [] -> no_nl L ->
  (pre = [] \/ exists p, pre = p ++ [10%N]) ->
  (forall k, occ m (pre ++ L ++ m ++ X ++ m ++ post) k = true ->
             k = List.length pre + List.length L \/
             k = List.length pre + (List.length L + List.length m + List.length X)) ->
  cut m (pre ++ L ++ m ++ X ++ m ++ post) = pre ++ m ++ post.
Proof.
  intros Hm Hmnl HL HLnl Hpre Honly. set (s0 := L ++ m ++ X ++ m ++ post) in *.
  unfold cut. rewrite app_length, plus_n_Sm, cut_aux_prefix.
  - f_equal. apply cut_marker_line; try assumption.
    intros j Hj. rewrite <- (occ_app_r m pre) in Hj. destruct (Honly _ Hj); lia.
  - (* the regexp matches nowhere in [pre]: its .+ and the first marker are on one line, which ends inside [pre] *)
    intros k Hk. apply match_here_none; [exact Hm|]. intros j _ Hj. rewrite occ_skipn.
    destruct (skipn_in_lines pre k Hpre Hk) as (l & Hl & E). rewrite E in Hj.
    pose proof (line_len_nl l s0).
    destruct (occ m (pre ++ s0) (k + j)) eqn:Ho; [|reflexivity]. destruct (Honly _ Ho); lia.
Qed.

(** non-vacuity: a one-line interface and a multi-line one, evaluated *)
Example cut_examples :
  let m := s2b "MARK" in
  cut m (s2b "package p" ++ [10%N] ++ s2b "type C MARKinterface{ F(S) D }MARK" ++ [10%N] ++ s2b "var x int" ++ [10%N])
    = s2b "package p" ++ [10%N] ++ m ++ [10%N] ++ s2b "var x int" ++ [10%N]
  /\ cut m (s2b "type C MARKinterface {" ++ [10%N] ++ s2b "  F(S) D" ++ [10%N] ++ s2b "}MARK" ++ [10%N] ++ s2b "// tail")
    = m ++ [10%N] ++ s2b "// tail".
Proof. vm_compute. split; reflexivity. Qed.
