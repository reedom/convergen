(** UtilTieProofs.v — the class predicates of pkg/util/types.go (IsSliceType, IsBasicType,
    IsNamedType, IsPtr, DerefPtr, Deref), translated from the Go source on every run
    (gen/GoFuns.v, module GoUtil: a type assertion t.( *types.Slice) is the recogniser of the
    model's constructor), equal the predicates of GoTypes.v that the builder model consults. *)
From Cvg Require Import GoTypes GoFuns.
Import GoUtil.

Lemma is_slice_tie t : IsSliceType t = is_slice t.   Proof. destruct t; reflexivity. Qed.
Lemma is_basic_tie t : IsBasicType t = is_basic t.   Proof. destruct t; reflexivity. Qed.
Lemma is_named_tie t : IsNamedType t = is_named t.   Proof. destruct t; reflexivity. Qed.
Lemma is_ptr_tie t : IsPtr t = is_ptr t.             Proof. destruct t; reflexivity. Qed.
Lemma deref_ptr_tie t : DerefPtr t = deref_ptr t.    Proof. destruct t; reflexivity. Qed.
Lemma deref_tie t : Deref t = (deref_ptr t, is_ptr t). Proof. destruct t; reflexivity. Qed.
