(** NoPanicProofs.v — no run of the pipeline ends in a failure of kind [k]: a panic site of the Go
    code reached ([FPanic]), or the model's recursion out of fuel ([FFuel]). The two kinds are one
    development up to the sites themselves: should_skip on a nil regexp, CreateFunction and
    resolveConverters on a method without operands (excluded by what [parse] guarantees of its
    entries, [parsed]), and fuel 0 in structToStruct (excluded by the measure of FuelProofs.v). *)
From Cvg Require Import Base GoTypes Matcher Dump Options Front Builder Pipeline.
From Cvg.gen Require Extracted.
From Cvg.proofs Require Import BuilderProofs FrontProofs.
Open Scope N_scope.

Inductive failure := FPanic | FFuel.

(** [fails FPanic] is [is_panic]; matching on the outcome first lets [fails k] compute on every
    other outcome while [k] is a variable *)
Definition fails {A} (k : failure) (o : outcome A) : bool :=
  match o with
  | Panic _ => match k with FPanic => true | FFuel => false end
  | Fuel => match k with FPanic => false | FFuel => true end
  | _ => false
  end.
Definition avoids {A} (k : failure) (r : res A) : Prop := fails k (fst r) = false.

(** no failure of kind [k], and a result satisfies [Q]: the form for a stage whose successor avoids
    [k] only on results that satisfy [Q] *)
Definition ends {A} (k : failure) (Q : A -> Prop) (o : outcome A) : Prop :=
  match o with Ok a => Q a | _ => fails k o = false end.

Lemma avoids_lift {A} k (o : outcome A) : fails k o = false -> avoids k (lift o).
Proof. exact (fun H => H). Qed.

Lemma avoids_rbind {A B} k (m : res A) (f : A -> res B) :
  avoids k m -> (forall a, avoids k (f a)) -> avoids k (rbind m f).
Proof.
  unfold avoids, rbind. destruct m as [[a|e|s| |w] ev]; cbn [fst]; intros Hm Hf; try assumption.
  specialize (Hf a). destruct (f a) as [o ev']. exact Hf.
Qed.

Lemma fails_obind {A B} k (m : outcome A) (f : A -> outcome B) :
  fails k m = false -> (forall a, fails k (f a) = false) -> fails k (obind m f) = false.
Proof. unfold obind. destruct m; intros Hm Hf; auto. Qed.

(** at a panic site only [FPanic] is left to exclude: there one shows that [k = FPanic] contradicts
    what is known of the site *)
Lemma avoids_panic {A} k s : k <> FPanic -> avoids k (@panic A s).
Proof. destruct k; [congruence|reflexivity]. Qed.

(** A function whose text holds neither a panic site nor the fuel site yields neither failure.  [walk]
    follows such a text from the head of the goal: a case split at a [match], the monad lemmas at a
    bind, computation at a leaf (there [fails k] is [false] for any [k]), at a call the lemma of the
    callee from the hint database [avoids] or the context.  Where a site is, it leaves the goal. *)
Create HintDb avoids discriminated.

Ltac walk :=
  repeat match goal with
    | |- avoids _ (match ?x with _ => _ end) => destruct x
    | |- fails _ (match ?x with _ => _ end) = false => destruct x
    | |- avoids _ (rbind _ _) => apply avoids_rbind; [|intros ?]
    | |- fails _ (obind _ _) = false => apply fails_obind; [|intros ?]
    | |- avoids _ (lift _) => apply avoids_lift
    | _ => reflexivity
    | _ => solve [auto with avoids]
    end.

Section Builder.
  Variables (d : dump) (k : failure).

  Lemma type_name_avoids t : fails k (type_name d t) = false.
  Proof. induction t; cbn [type_name]; walk. Qed.

  Lemma is_external_avoids t : fails k (is_external d t) = false.
  Proof. unfold is_external. walk. Qed.

  #[local] Hint Resolve type_name_avoids is_external_avoids : avoids.

  Lemma create_var_avoids n t dn : fails k (create_var d n t dn) = false.
  Proof. unfold create_var. walk. Qed.

  Lemma new_typecast_avoids t r : fails k (new_typecast d t r) = false.
  Proof. unfold new_typecast. walk. Qed.

  Lemma build_manipulator_avoids m s t args re : avoids k (build_manipulator d m s t args re).
  Proof. unfold build_manipulator. walk. Qed.

  #[local] Hint Resolve create_var_avoids new_typecast_avoids build_manipulator_avoids : avoids.

  Section WithOpts.
    Variables (o : options) (mpos : position).

    Lemma cast_node_avoids t r : avoids k (cast_node d o mpos t r).
    Proof. unfold cast_node. walk. Qed.

    Lemma slice_to_slice_avoids l r : avoids k (slice_to_slice d o l r).
    Proof. unfold slice_to_slice. walk. Qed.

    Lemma no_match_warn_avoids p l : avoids k (no_match_warn d p l).
    Proof. unfold no_match_warn. walk. Qed.

    #[local] Hint Resolve cast_node_avoids slice_to_slice_avoids no_match_warn_avoids : avoids.

    Lemma create_with_converter_avoids l r c : avoids k (create_with_converter d o mpos l r c).
    Proof. unfold create_with_converter. walk. Qed.

    Lemma create_with_mapper_avoids l r m : avoids k (create_with_mapper d o mpos l r m).
    Proof. unfold create_with_mapper. walk. Qed.

    Lemma create_with_templated_avoids l r args m : avoids k (create_with_templated d o mpos l r args m).
    Proof. unfold create_with_templated. walk. Qed.

    #[local] Hint Resolve create_with_converter_avoids create_with_mapper_avoids create_with_templated_avoids : avoids.

    (** The hypotheses of the higher-order layers say where the argument is consulted (the descent only for
        a destination of by-value struct type, [mf] only on the fields of the list): the measure of
        FuelProofs.v lives on that. *)
    Lemma name_pass_avoids s2s l rs cands :
      (is_struct_type (d_env d) (expr_type l) = true -> forall b, avoids k (s2s l b)) ->
      avoids k (name_pass d o mpos s2s l rs cands).
    Proof.
      intros Hs. induction cands as [|r cands IH]; cbn [name_pass]; [reflexivity|].
      destruct (_ || _); [exact IH|].
      apply avoids_rbind; [walk|intros [a|]; [reflexivity|]].
      apply avoids_rbind; [apply cast_node_avoids|intros [c|]; [reflexivity|]].
      destruct (is_struct_type (d_env d) (expr_type l)) eqn:El; [|reflexivity].
      destruct (is_struct_type (d_env d) (expr_type r)); [|reflexivity].
      apply avoids_rbind; [now apply Hs|reflexivity].
    Qed.

    Lemma name_match_with_avoids s2s l rs :
      (is_struct_type (d_env d) (expr_type l) = true -> forall b, avoids k (s2s l b)) ->
      avoids k (name_match_with d o mpos s2s l rs).
    Proof.
      intros Hs. pose proof (fun cands => name_pass_avoids s2s l rs cands Hs). unfold name_match_with. walk.
    Qed.

    (** the site of PatternMatcher.Match, a nil regexp, is behind [should_skip] *)
    Lemma match_field_with_avoids nm l r args :
      (k = FPanic -> skip_ok o) -> (forall b, avoids k (nm l b)) ->
      avoids k (match_field_with d o mpos nm l r args).
    Proof.
      intros Hskip Hn. unfold match_field_with.
      destruct (should_skip _ _ _) as [[|]| |] eqn:Es; walk.
      apply avoids_panic. intros Hk. exact (should_skip_never_panics _ _ _ (Hskip Hk) Es).
    Qed.

    Lemma fields_loop_avoids mf ls fs :
      Forall (fun a => avoids k (mf a)) fs -> avoids k (fields_loop d mf ls fs).
    Proof. induction 1; cbn [fields_loop]; walk. Qed.

    (** the descent goes to the by-value struct fields of the destination *)
    Lemma struct_to_struct_step fuel L R args :
      (k = FPanic -> skip_ok o) ->
      (forall lf R', In lf (field_nodes d L) -> is_struct_type (d_env d) (expr_type lf) = true ->
                     avoids k (struct_to_struct d o mpos fuel lf R' [])) ->
      avoids k (struct_to_struct d o mpos (S fuel) L R args).
    Proof.
      intros Hskip Hrec. cbn [struct_to_struct].
      apply fields_loop_avoids, Forall_forall. intros lf Hin. apply match_field_with_avoids; [exact Hskip|]. intros b.
      apply name_match_with_avoids. intros Hst b'. now apply Hrec.
    Qed.
  End WithOpts.

  Definition operand_types (m : method_entry) : list ty :=
    firstn 1 (sg_ptys (me_sig m)) ++ firstn 1 (sg_rtys (me_sig m)).

  Definition has_operands (m : method_entry) : Prop :=
    sg_ptys (me_sig m) <> [] /\ sg_pnames (me_sig m) <> [] /\ sg_rtys (me_sig m) <> [] /\ sg_rnames (me_sig m) <> [].

  (** the site of CreateFunction is a method without operands; structToStruct starts on one of the two *)
  Lemma create_function_avoids fuel m cs :
    (k = FPanic -> has_operands m) ->
    (forall L R args, In (expr_type L) (operand_types m) ->
                      avoids k (struct_to_struct d (me_opts m) (md_pos (me_decl m)) fuel L R args)) ->
    avoids k (create_function d fuel m cs).
  Proof.
    unfold has_operands, operand_types, create_function. intros Hop Hs2s.
    destruct (sg_ptys (me_sig m)) as [|src_t arg_ts], (sg_pnames (me_sig m)) as [|src_n arg_ns],
             (sg_rtys (me_sig m)) as [|dst_t rts], (sg_rnames (me_sig m)) as [|dst_n rns];
      try (apply avoids_panic; intros Hk; destruct (Hop Hk) as (? & ? & ? & ?); congruence).
    clear Hop. cbn [firstn app In] in Hs2s. walk.
    (* what is left is the local recursion over the additional arguments *)
    generalize 0; clear Hs2s; revert arg_ts; induction arg_ns as [|n ns IH]; intros [|t ts] i; walk.
  Qed.
End Builder.

Lemma struct_to_struct_never_panics d o mpos fuel : forall L R args,
  skip_ok o -> avoids FPanic (struct_to_struct d o mpos fuel L R args).
Proof.
  induction fuel as [|fuel IH]; intros L R args Hs; [reflexivity|]. apply struct_to_struct_step; auto.
Qed.

Section Front.
  Variables (d : dump) (k : failure).

  (** the site of lookupConverterFunc lies behind the test of the two lengths *)
  Lemma lookup_converter_func_avoids name pos : avoids k (lookup_converter_func d name pos).
  Proof.
    unfold lookup_converter_func.
    destruct (lookup_type d name) as [|[sg ex pk fn| | |]]; try reflexivity.
    destruct (negb ex && negb (str_eqb pk (d_pkg_path d))); [reflexivity|].
    destruct (sg_ptys sg) as [|a [|a' pl]]; destruct (sg_rtys sg) as [|r [|e [|x rl]]];
      cbn [List.length Nat.eqb Nat.ltb Nat.leb negb orb]; walk.
  Qed.

  Lemma lookup_manipulator_func_avoids name on pos : avoids k (lookup_manipulator_func d name on pos).
  Proof. unfold lookup_manipulator_func. walk. Qed.

  #[local] Hint Resolve lookup_manipulator_func_avoids : avoids.

  Lemma parse_one_avoids vops c st cpos : avoids k (parse_one d vops c st cpos).
  Proof. unfold parse_one. walk. Qed.

  #[local] Hint Resolve parse_one_avoids : avoids.

  Lemma parse_list_avoids vops cs : forall st, avoids k (parse_list d vops cs st).
  Proof. induction cs as [|c cs IH]; intros st; cbn [parse_list]; walk. Qed.

  #[local] Hint Resolve parse_list_avoids : avoids.

  Lemma parse_notations_avoids vops cs o : avoids k (parse_notations d vops cs o).
  Proof. unfold parse_notations. walk. Qed.

  #[local] Hint Resolve parse_notations_avoids : avoids.

  (** the stages that thread the store pass every outcome but [Ok] through as it is *)
  Lemma parse_method_avoids m opts st : avoids k (fst (parse_method d m opts st)).
  Proof.
    unfold parse_method.
    destruct (sg_ptys (md_sig m)); [reflexivity|]. destruct (sg_rtys (md_sig m)); [reflexivity|].
    destruct (extract_notations st _) as [nots st1].
    pose proof (parse_notations_avoids Extracted.valid_ops_method nots opts) as Hn.
    destruct (parse_notations d _ nots opts) as [[o|e|s| |w] ev]; exact Hn.
  Qed.

  Lemma parse_methods_loop_avoids ms : forall opts st acc failed ev,
    fails k (fst (fst (parse_methods_loop d ms opts st acc failed ev))) = false.
  Proof.
    induction ms as [|m ms IH]; intros opts st acc failed ev; cbn [parse_methods_loop].
    - destruct failed; reflexivity.
    - pose proof (parse_method_avoids m opts st) as Hn.
      destruct (parse_method d m opts st) as [[[me|e|s| |w] ev1] st1]; try apply IH; exact Hn.
  Qed.

  Lemma find_entries_loop_avoids ifs : forall st acc, avoids k (find_entries_loop d ifs st acc).
  Proof.
    induction ifs as [|i ifs IH]; intros st acc; cbn [find_entries_loop]; walk.
  Qed.

  #[local] Hint Resolve find_entries_loop_avoids : avoids.

  Lemma find_entries_avoids st : avoids k (find_entries d st).
  Proof. unfold find_entries. walk. Qed.
End Front.

Lemma forallb_flat_map {A B} (p : B -> bool) (f : A -> list B) l b :
  forallb (fun a => forallb p (f a)) l = true -> In b (flat_map f l) -> p b = true.
Proof.
  intros H Hb. apply in_flat_map in Hb as (a & Ha & Hb).
  rewrite forallb_forall in H. specialize (H a Ha). rewrite forallb_forall in H. now apply H.
Qed.

Lemma fold_left_inv {A B} (I : A -> Prop) (f : A -> B -> A) l :
  (forall a b, I a -> I (f a b)) -> forall a, I a -> I (fold_left f l a).
Proof. intros Hf. induction l as [|b l IH]; intros a Ha; cbn [fold_left]; auto. Qed.

(** ** what [parse] guarantees of the method entries it returns: each carries a method of the
    dump that has operands, and skip matchers made by NewPatternMatcher *)
Section Parsed.
  Variable d : dump.

  Definition all_decls : list method_decl := flat_map if_methods (d_ifaces d).

  Definition parsed (m : method_entry) : Prop :=
    In (me_decl m) all_decls /\ sg_ptys (me_sig m) <> [] /\ sg_rtys (me_sig m) <> [] /\ skip_ok (me_opts m).

  Definition entry_ok (e : intf_entry) : Prop := skip_ok (ie_opts e) /\ In (ie_decl e) (d_ifaces d).

  Lemma find_entries_entry_ok st es st' ev : find_entries d st = (Ok (es, st'), ev) -> Forall entry_ok es.
  Proof.
    intros H. apply find_entries_ok in H as [_ H].
    apply find_entries_loop_ok in H as (new & -> & Hn & _).
    apply Forall_forall. intros e He. destruct (Hn e He) as (Hin & _ & nots & ev' & Ho).
    split; [|exact Hin]. eapply parse_notations_skip; [|exact Ho]. constructor.
  Qed.

  Lemma parse_methods_loop_parsed i opts st res st' ev :
    skip_ok opts -> In i (d_ifaces d) ->
    parse_methods_loop d (if_methods i) opts st [] false [] = (Ok res, st', ev) -> Forall parsed res.
  Proof.
    intros Hs Hi H. apply parse_methods_loop_ok in H as (_ & new & -> & Hm & Hn).
    apply Forall_forall. intros me Hme. destruct (Hn me Hme) as (st_i & ev_i & st_j & Hp).
    apply parse_method_ok in Hp as (_ & Hp & Hr & Ho).
    repeat split; [|exact Hp|exact Hr|eapply parse_notations_skip; eassumption].
    apply in_flat_map. exists i. split; [exact Hi|]. rewrite <- Hm. now apply in_map.
  Qed.

  (** resolveConverters rewrites the converters only *)
  Lemma resolve_all_parsed all ms : forall res ev,
    Forall parsed ms -> resolve_all d all ms = (Ok res, ev) -> Forall parsed res.
  Proof.
    induction ms as [|m ms IH]; intros res ev Hm H; cbn [resolve_all] in H; inv_res; [constructor|].
    inversion Hm; subst. constructor; [assumption|eapply IH; eassumption].
  Qed.

  Lemma regroup_forall (P : method_entry -> Prop) blocks resolved :
    Forall P resolved -> Forall (fun b => Forall P (snd b)) (regroup blocks resolved).
  Proof.
    intros Hr. unfold regroup.
    eapply proj1, (fold_left_inv (fun acc => Forall (fun b => Forall P (snd b)) (fst acc) /\ Forall P (snd acc))).
    - intros [done rest] b [Hd Hrest]. cbn [fst snd].
      rewrite <- (firstn_skipn (List.length (snd b)) rest) in Hrest. apply Forall_app in Hrest as [Hf Hs].
      split; [|exact Hs].
      apply Forall_app. split; [exact Hd|]. constructor; [exact Hf|constructor].
    - split; [constructor|exact Hr].
  Qed.
End Parsed.

Section Pipeline.
  Variables (d : dump) (k : failure).

  (** the site of resolveConverters: a method taken as converter has operands *)
  Lemma resolve_converter_avoids all c : Forall (parsed d) all -> avoids k (resolve_converter d all c).
  Proof.
    intros Ha. unfold resolve_converter.
    pose proof (lookup_converter_func_avoids d k (fc_name c) (fc_pos c)) as Hn.
    destruct (lookup_converter_func d (fc_name c) (fc_pos c)) as [[[[a r] e]|err0|s| |w] ev0]; try exact Hn.
    (* the local [scan] carries the error and the events so far as accumulators *)
    clear Hn. generalize err0 ev0. induction Ha as [|m ms (_ & Hp & Hr & _) _ IH]; intros err ev; [reflexivity|].
    destruct (negb (str_eqb (me_name m) (fc_name c))); [apply IH|].
    destruct (negb (str_eqb (o_style (me_opts m)) style_return)); [apply IH|].
    destruct (negb (str_eqb (o_receiver (me_opts m)) [])); [apply IH|].
    destruct (sg_ptys (me_sig m)); [congruence|]. destruct (sg_rtys (me_sig m)); [congruence|]. reflexivity.
  Qed.

  #[local] Hint Resolve resolve_converter_avoids : avoids.

  Lemma resolve_convs_avoids all cs : Forall (parsed d) all -> avoids k (resolve_convs d all cs).
  Proof.
    intros Ha. induction cs as [|c cs IH]; cbn [resolve_convs]; walk.
  Qed.

  #[local] Hint Resolve resolve_convs_avoids : avoids.

  Lemma resolve_all_avoids all ms : Forall (parsed d) all -> avoids k (resolve_all d all ms).
  Proof.
    intros Ha. induction ms as [|m ms IH]; cbn [resolve_all]; walk.
  Qed.

  Lemma parse_entries_ends es : forall st ev, Forall (entry_ok d) es ->
    ends k (fun bl => Forall (parsed d) (List.concat (List.map snd bl))) (fst (fst (parse_entries d es st ev))).
  Proof.
    induction es as [|e es IH]; intros st ev He; cbn [parse_entries]; [constructor|].
    inversion He as [|? ? [Hs Hin] He']; subst.
    pose proof (parse_methods_loop_avoids d k (if_methods (ie_decl e)) (ie_opts e) st [] false []) as Hn.
    destruct (parse_methods_loop d _ _ st [] false []) as [[[ms|x|s| |w] st1] ev1] eqn:Ep; try exact Hn.
    apply parse_methods_loop_parsed in Ep; [|exact Hs|exact Hin].
    specialize (IH st1 (ev ++ ev1) He').
    destruct (parse_entries d es st1 (ev ++ ev1)) as [[[rest|x|s| |w] st2] ev2]; try exact IH.
    apply Forall_app. split; [exact Ep|exact IH].
  Qed.

  (** the methods resolveConverters looks among are those of the entries, so [parse] is known to
      avoid [k] only together with what it guarantees of its entries *)
  Lemma parse_ends st0 : ends k (Forall (fun b => Forall (parsed d) (snd b))) (fst (fst (parse d st0))).
  Proof.
    unfold parse.
    pose proof (find_entries_avoids d k st0) as Hn.
    destruct (find_entries d st0) as [[[es st1]|e|s| |w] ev1] eqn:Ef; try exact Hn.
    pose proof (parse_entries_ends es st1 ev1 (find_entries_entry_ok d _ _ _ _ Ef)) as Hp.
    destruct (parse_entries d es st1 ev1) as [[[blocks|e|s| |w] st2] ev2]; try exact Hp.
    pose proof (resolve_all_avoids _ (List.concat (List.map snd blocks)) Hp) as Hr.
    destruct (resolve_all d _ _) as [[res|e|s| |w] ev3] eqn:Er; try exact Hr.
    apply regroup_forall. exact (resolve_all_parsed d _ _ _ _ Hp Er).
  Qed.

  (** all that is left to each kind is CreateFunction on the entries [parse] returns *)
  Hypothesis Hcf : forall m cs, parsed d m -> avoids k (create_function d (build_fuel d) m cs).

  Lemma create_functions_avoids st ms : Forall (parsed d) ms -> avoids k (create_functions d st ms).
  Proof.
    induction 1; cbn [create_functions]; walk.
  Qed.

  #[local] Hint Resolve create_functions_avoids : avoids.

  Lemma create_blocks_avoids st bs : Forall (fun b => Forall (parsed d) (snd b)) bs -> avoids k (create_blocks d st bs).
  Proof.
    induction 1 as [|[e ms] bs]; cbn [create_blocks]; walk.
  Qed.

  Lemma run_pipeline_avoids : fails k (po_result (run_pipeline d)) = false.
  Proof.
    unfold run_pipeline.
    pose proof (parse_ends {| st_groups := d_comments d; st_docs := d_docs d |}) as Hp.
    destruct (parse d _) as [[[blocks|e|s| |w] st] ev]; try exact Hp.
    pose proof (create_blocks_avoids st blocks Hp) as Hc.
    destruct (create_blocks d st blocks) as [o ev']. exact Hc.
  Qed.
End Pipeline.

Section NoPanic.
  Variable d : dump.

  Lemma dump_wf_b_spec m : dump_wf_b d = true -> In m (all_decls d) -> sig_wf (md_sig m) = true.
  Proof. exact (forallb_flat_map (fun m => sig_wf (md_sig m)) if_methods (d_ifaces d) m). Qed.

  (** with one name slot per parameter and per result, operands that exist have their names *)
  Lemma sig_wf_names sg :
    sig_wf sg = true -> sg_ptys sg <> [] -> sg_rtys sg <> [] -> sg_pnames sg <> [] /\ sg_rnames sg <> [].
  Proof.
    unfold sig_wf. intros Hw Hp Hr. apply andb_true_iff in Hw as [Hn1 Hn2].
    destruct (sg_ptys sg), (sg_rtys sg), (sg_pnames sg), (sg_rnames sg); try discriminate; try congruence.
    split; discriminate.
  Qed.

  Theorem run_pipeline_never_panics : dump_wf_b d = true -> is_panic (po_result (run_pipeline d)) = false.
  Proof.
    intros Hd. apply (run_pipeline_avoids d FPanic). intros m cs (Hin & Hp & Hr & Hs).
    apply create_function_avoids; [intros _|intros L R args _; now apply struct_to_struct_never_panics].
    destruct (sig_wf_names _ (dump_wf_b_spec _ Hd Hin) Hp Hr). repeat split; assumption.
  Qed.
End NoPanic.
