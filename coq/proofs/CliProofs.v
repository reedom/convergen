(** CliProofs.v — path laws, the configuration parse_args returns, and the cases of run_core (C18, C12, C15). *)
From Coq Require Import String.
From Cvg Require Import Base Cli.
Open Scope N_scope.

(** ** path_ext is a suffix without '/', empty or starting with its only '.' *)
Lemma ext_rev_spec r acc :
  ext_rev r acc = [] \/
  exists r1 r2, r = r1 ++ 46 :: r2 /\ ext_rev r acc = 46 :: rev r1 ++ acc /\
                forall c, In c r1 -> c <> 47 /\ c <> 46.
Proof.
  revert acc; induction r as [|c r IH]; intros acc; simpl; [now left|].
  destruct (N.eqb_spec c 47) as [->|H47]; [now left|].
  destruct (N.eqb_spec c 46) as [->|H46]; [right; now exists [], r|].
  destruct (IH (c :: acc)) as [H|(r1 & r2 & -> & H & Hr1)]; [now left|right].
  exists (c :: r1), r2. rewrite H. simpl. rewrite <- app_assoc. do 2 (split; [reflexivity|]).
  intros d [<-|Hd]; auto.
Qed.

Lemma path_ext_suffix p : exists s, p = s ++ path_ext p.
Proof.
  unfold path_ext. destruct (ext_rev_spec (rev p) []) as [H|(r1 & r2 & Hp & H & _)]; rewrite H, ?app_nil_r.
  - exists p. now rewrite app_nil_r.
  - exists (rev r2). rewrite <- (rev_involutive p), Hp, rev_app_distr. simpl. now rewrite <- app_assoc.
Qed.

Lemma stem_ext p : stem p ++ path_ext p = p.
Proof.
  unfold stem. destruct (path_ext_suffix p) as [s Hs].
  remember (path_ext p) as e eqn:He. clear He. subst p.
  now rewrite app_length, Nat.add_sub, firstn_app, Nat.sub_diag, firstn_all, firstn_O, app_nil_r.
Qed.

(** the extension is empty, or a '.' followed by bytes that are neither '.' nor '/' *)
Lemma path_ext_shape p :
  path_ext p = [] \/ exists e, path_ext p = 46 :: e /\ forall c, In c e -> c <> 47 /\ c <> 46.
Proof.
  unfold path_ext. destruct (ext_rev_spec (rev p) []) as [H|(r1 & r2 & _ & H & Hr1)]; [now left|right].
  exists (rev r1). rewrite H, app_nil_r. split; [reflexivity|].
  intros c Hc. apply Hr1. now apply in_rev.
Qed.

(** the extension belongs to the last path element: no '/' after the stem *)
Lemma path_ext_last_element p s :
  p = s ++ path_ext p -> forall c, In c (path_ext p) -> c <> 47.
Proof.
  intros _ c Hc. destruct (path_ext_shape p) as [E|(e & E & He)]; rewrite E in Hc.
  - destruct Hc.
  - destruct Hc as [<-|Hc]; [discriminate|]. now apply He.
Qed.

(** without a dot in what is scanned, the extension is empty *)
Lemma ext_rev_nodot r acc :
  (forall c, In c r -> c <> 46) -> ext_rev r acc = [].
Proof.
  intros H. destruct (ext_rev_spec r acc) as [E|(r1 & r2 & -> & _)]; [exact E|].
  destruct (H 46); [apply in_elt|reflexivity].
Qed.

Lemma parse_args_config args gofile c v rest :
  parse_args args gofile = CliConfig c ->
  parse_flags flag_defaults args = ArgsOk v rest ->
  let input := match rest with a :: _ => match a with [] => gofile | _ => a end | [] => gofile end in
  let output := match f_out v with [] => insert_before_ext input (s2b ".gen") | o => o end in
  input <> [] /\
  c = {| c_input := input; c_output := output;
         c_log := if f_log v then replace_ext output (s2b ".log") else [];
         c_dry := f_dry v; c_prints := f_print v |}.
Proof.
  unfold parse_args. intros H Hf. rewrite Hf in H.
  destruct rest as [|[|i it] rest'].
  (* no input argument, or an empty one: $GOFILE stands in and must be there *)
  1, 2: destruct gofile; [discriminate|].
  all: injection H as <-; now split.
Qed.

Definition log_effects (c : config) : list effect :=
  match c_log c with [] => [] | l => [Truncate l] end.

Lemma in_log_effects c e : In e (log_effects c) -> e = Truncate (c_log c) /\ c_log c <> [].
Proof. unfold log_effects. destruct (c_log c); [intros []|intros [<-|[]]; now split]. Qed.

Lemma log_effects_nolog c : c_log c = [] -> log_effects c = [].
Proof. unfold log_effects. now intros ->. Qed.

(** A run fails with at most the log opened, or it has generated code and succeeds;
    what it then does is a function of the code and the configuration. *)
Lemma run_core_cases c cw g :
  let r := run_core c cw g in
  r_status r = 1 /\ (r_effects r = [] \/ r_effects r = log_effects c) \/
  exists code, g = GenCode code /\
    r = {| r_effects := log_effects c ++ (if c_dry c then [] else [WriteFile (c_output c) code]);
           r_stdout := if c_prints c then code else [];
           r_status := 0 |}.
Proof.
  unfold run_core, log_effects.
  destruct (c_log c) as [|l0 lt]; [|destruct (cw (l0 :: lt)); [|auto]];
    (destruct g as [| |code]; [auto..|]);
    (destruct (c_dry c); [|destruct (cw (c_output c)); [|auto]]);
    right; exists code; now rewrite ?app_nil_r.
Qed.

Definition without_log (c : config) : config :=
  {| c_input := c_input c; c_output := c_output c; c_log := []; c_dry := c_dry c; c_prints := c_prints c |}.
