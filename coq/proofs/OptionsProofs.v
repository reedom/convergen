(** OptionsProofs.v — notation scoping (C09): what interface-level notations can
    set, and where each method's / interface's options come from. *)
From Coq Require Import String.
From Cvg Require Import Base Dump Options Front.
From Cvg.gen Require Extracted.
From Cvg.proofs Require Import FrontProofs.
Open Scope N_scope.

(** the regexp sources the hand-written recognisers model are pinned: editing
    one in the Go source breaks this file, which is the signal to re-validate them *)
Example re_notation_pinned : Extracted.re_notation_src = s2b "^\s*//\s*:(\S+)\s*(.*)$".
Proof. vm_compute. reflexivity. Qed.
Example re_literal_pinned : Extracted.re_literal_src = s2b "^\s*\S+\s+(.*)$".
Proof. vm_compute. reflexivity. Qed.
Example intf_name_pinned : Extracted.intf_name = s2b "Convergen".
Proof. vm_compute. reflexivity. Qed.

Lemma mem_str_in x l : mem_str x l = true -> In x l.
Proof.
  induction l as [|y l IH]; simpl; [discriminate|].
  intros H. apply orb_true_iff in H as [H|H]; [left; symmetry; now apply str_eqb_eq|right; auto].
Qed.

(** the per-method lists and settings an interface-level comment must never touch *)
Definition lists_empty (o : options) : Prop :=
  o_skip o = [] /\ o_map o = [] /\ o_tmap o = [] /\ o_conv o = [] /\ o_lit o = [] /\
  o_pre o = None /\ o_post o = None /\ o_receiver o = [] /\ o_reverse o = false.

Lemma new_options_lists_empty : lists_empty new_options.
Proof. unfold lists_empty, new_options. vm_compute. repeat split. Qed.

Section Scoping.
  Variable d : dump.

  (** the operations that touch them are not in the ValidOpsIntf table *)
  Lemma parse_one_intf_preserves c o pr cpos o' pr' ev :
    lists_empty o ->
    parse_one d Extracted.valid_ops_intf c (o, pr) cpos = (Ok (o', pr'), ev) ->
    lists_empty o' /\ pr' = pr.
  Proof.
    intros Hl H. apply parse_one_ok in H as [[= <- <-]|(op & Hv & H)]; [auto|].
    inversion H; subst; first [discriminate Hv | split; [exact Hl|reflexivity]].
  Qed.

  Lemma parse_list_intf_preserves cs : forall o pr o' pr' ev,
    lists_empty o ->
    parse_list d Extracted.valid_ops_intf cs (o, pr) = (Ok (o', pr'), ev) -> lists_empty o'.
  Proof.
    apply parse_list_inv. intros c o p cpos o' p' ev Hl H. eapply parse_one_intf_preserves; eassumption.
  Qed.

  (** C09: whatever an interface's doc comment contains, the options it yields
      carry no :skip/:map/:conv/:literal entries, no hooks, no receiver, no
      :reverse — so methods start from toggles, style and match rule only. *)
  Theorem intf_options_lists_empty cs o :
    fst (parse_notations d Extracted.valid_ops_intf cs new_options) = Ok o -> lists_empty o.
  Proof.
    destruct (parse_notations d _ cs new_options) as [o' ev] eqn:E. cbn [fst]. intros ->.
    apply parse_notations_ok in E as [p' E].
    eapply parse_list_intf_preserves; [apply new_options_lists_empty|exact E].
  Qed.

  (** C09: every entry's options are computed from the defaults and the
      notations of the interface's own doc comment — not from another interface's. *)
  Lemma find_entries_loop_opts ifs : forall st acc es st' ev,
    find_entries_loop d ifs st acc = (Ok (es, st'), ev) ->
    exists new, es = rev acc ++ new /\
      forall e, In e new -> exists nots ev', parse_notations d Extracted.valid_ops_intf nots new_options = (Ok (ie_opts e), ev').
  Proof.
    intros st acc es st' ev H. apply find_entries_loop_ok in H as (new & -> & Hn & _).
    exists new. split; [reflexivity|]. intros e He. apply (Hn e He).
  Qed.

  (** C09: every method entry is the result of parseMethod on its own
      declaration with the interface's options: no other method's notations enter. *)
  Lemma parse_methods_loop_opts ms : forall opts st acc failed ev0 res st' ev,
    parse_methods_loop d ms opts st acc failed ev0 = (Ok res, st', ev) ->
    exists new, res = rev acc ++ new /\
      forall me, In me new -> exists st_i ev_i st_j, parse_method d (me_decl me) opts st_i = ((Ok me, ev_i), st_j).
  Proof.
    intros opts st acc failed ev0 res st' ev H.
    apply parse_methods_loop_ok in H as (_ & new & Hr & _ & Hn). eauto.
  Qed.

  (** the options of a method entry: the method's own notations applied to the interface's options *)
  Lemma parse_method_opts m opts st me ev st' :
    parse_method d m opts st = ((Ok me, ev), st') ->
    exists nots, parse_notations d Extracted.valid_ops_method nots opts = (Ok (me_opts me), ev) /\
                 nots = fst (extract_notations st (get_doc st (md_chain m))).
  Proof. intros H. apply parse_method_ok in H as (_ & _ & _ & H). eauto. Qed.
End Scoping.

(** toggles: the last notation wins (shown on the setter algebra used by parse_one) *)
Lemma set_typecast_last o a b : o_typecast (set_typecast (set_typecast o a) b) = b.
Proof. reflexivity. Qed.
Lemma set_exact_last o a b : o_exact (set_exact (set_exact o a) b) = b.
Proof. reflexivity. Qed.
Lemma setters_commute_on_other_fields o b :
  o_getter (set_typecast o b) = o_getter o /\ o_stringer (set_typecast o b) = o_stringer o /\
  o_exact (set_typecast o b) = o_exact o /\ o_style (set_typecast o b) = o_style o /\ o_rule (set_typecast o b) = o_rule o.
Proof. repeat split. Qed.
