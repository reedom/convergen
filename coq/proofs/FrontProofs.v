(** FrontProofs.v — what a successful run of each stage of Front.v / Options.v returned:
    one inversion lemma per stage, which the files about selection (C17), scoping (C09)
    and the panic sites (C14) specialise. *)
From Coq Require Import String.
From Cvg Require Import Base GoTypes Matcher Dump Options Front.
From Cvg.gen Require Extracted.
From Cvg.proofs Require Import BuilderProofs.
Open Scope N_scope.

(** ** the nil-regexp site of PatternMatcher.Match is unreachable *)
Definition pm_ok (m : pmatcher) : Prop := pm_re m <> CNil.

Lemma pm_match_never_nil m i ex : pm_ok m -> fst (pm_match m i ex) <> MPanic /\ pm_ok (snd (pm_match m i ex)).
Proof.
  unfold pm_ok, pm_match. intros Hm.
  (* under the other case rule the pattern is compiled again, and a failed compilation leaves the matcher as it was *)
  destruct (Bool.eqb (pm_exact m) ex).
  - destruct (pm_re m) eqn:E; simpl; split; congruence.
  - destruct (compile_pattern (pm_pattern m) ex) eqn:Ec; simpl.
    + split; discriminate.
    + destruct (pm_re m) eqn:E; simpl; split; congruence.
    + split; discriminate.
Qed.

Lemma should_skip_never_panics ms name ex : Forall pm_ok ms -> should_skip ms name ex <> MPanic.
Proof.
  induction 1 as [|m ms Hm _ IH]; simpl; [discriminate|].
  destruct (pm_match_never_nil m name ex Hm) as [H1 _].
  destruct (fst (pm_match m name ex)) as [[|]| |]; assumption.
Qed.

Lemma new_pmatcher_ok p ex m : new_pmatcher p ex = Some m -> pm_ok m.
Proof.
  unfold new_pmatcher, pm_ok. destruct (compile_pattern p ex) eqn:E; try discriminate; intros H; injection H as <-; simpl; congruence.
Qed.

Definition skip_ok (o : options) : Prop := Forall pm_ok (o_skip o).

(** ** parseNotationInComments: the dispatch table of [parse_one], read off its successes —
    for each operation, what it does to the options and to the position of the last :reverse *)
Inductive applied (o : options) (p cpos : position) : str -> options * position -> Prop :=
| ap_style a : applied o p cpos (s2b "style") (set_style o a, p)
| ap_match a : applied o p cpos (s2b "match") (set_rule o a, p)
| ap_case : applied o p cpos (s2b "case") (set_exact o true, p)
| ap_case_off : applied o p cpos (s2b "case:off") (set_exact o false, p)
| ap_getter : applied o p cpos (s2b "getter") (set_getter o true, p)
| ap_getter_off : applied o p cpos (s2b "getter:off") (set_getter o false, p)
| ap_stringer : applied o p cpos (s2b "stringer") (set_stringer o true, p)
| ap_stringer_off : applied o p cpos (s2b "stringer:off") (set_stringer o false, p)
| ap_typecast : applied o p cpos (s2b "typecast") (set_typecast o true, p)
| ap_typecast_off : applied o p cpos (s2b "typecast:off") (set_typecast o false, p)
| ap_recv a : applied o p cpos (s2b "recv") (set_receiver o a, p)
| ap_reverse : applied o p cpos (s2b "reverse") (set_reverse o true, cpos)
| ap_skip a m : new_pmatcher a (o_exact o) = Some m -> applied o p cpos (s2b "skip") (add_skip o m, p)
| ap_map m : applied o p cpos (s2b "map") (add_map o m, p)
| ap_tmap m : applied o p cpos (s2b "map") (add_tmap o m, p)
| ap_conv c : applied o p cpos (s2b "conv") (add_conv o c, p)
| ap_lit l : applied o p cpos (s2b "literal") (add_lit o l, p)
| ap_pre m : applied o p cpos (s2b "preprocess") (set_pre o m, p)
| ap_post m : applied o p cpos (s2b "postprocess") (set_post o m, p).

Section Notations.
  Variable d : dump.

  (** a notation that is accepted either changes nothing (an operation outside [vops], :convergen,
      an operation without a case arm) or is one line of the table *)
  Lemma parse_one_ok vops c o p cpos st' ev :
    parse_one d vops c (o, p) cpos = (Ok st', ev) ->
    st' = (o, p) \/ exists op, mem_str op vops = true /\ applied o p cpos op st'.
  Proof.
    unfold parse_one. destruct (notation_match (c_text c)) as [[op m2]|]; [|discriminate].
    destruct (mem_str op vops) eqn:Hv; cbn [negb]; [|intros [= <- _]; now left].
    intros H.
    repeat match type of H with
           | (if str_eqb op ?s then _ else _) = _ =>
               destruct (str_eqb op s) eqn:E; [apply str_eqb_eq in E; subst op|clear E]
           end.
    all: repeat match type of H with context [match ?x with _ => _ end] => destruct x eqn:? end; try discriminate H.
    all: inv_res.
    all: first [now left | right; eexists; split; [exact Hv|econstructor; eassumption]].
  Qed.

  Lemma parse_one_skip vops c o p cpos o' p' ev :
    skip_ok o -> parse_one d vops c (o, p) cpos = (Ok (o', p'), ev) -> skip_ok o'.
  Proof.
    intros Hs H. apply parse_one_ok in H as [[= <- _]|(op & _ & H)]; [exact Hs|].
    inversion H; subst; try exact Hs.
    apply Forall_app. split; [exact Hs|]. constructor; [|constructor]. eapply new_pmatcher_ok. eassumption.
  Qed.

  (** what every accepted notation preserves, the whole comment preserves *)
  Lemma parse_list_inv (P : options -> Prop) vops :
    (forall c o p cpos o' p' ev, P o -> parse_one d vops c (o, p) cpos = (Ok (o', p'), ev) -> P o') ->
    forall cs o p o' p' ev, P o -> parse_list d vops cs (o, p) = (Ok (o', p'), ev) -> P o'.
  Proof.
    intros Hone. induction cs as [|c cs IH]; intros o p o' p' ev Ho H; cbn [parse_list] in H.
    - apply ret_ok in H as [[= <- _] _]. exact Ho.
    - apply rbind_ok in H as ([o1 p1] & e1 & e2 & H1 & H & _). eapply IH; [|exact H]. eapply Hone; eassumption.
  Qed.

  Lemma parse_notations_ok vops cs o o' ev :
    parse_notations d vops cs o = (Ok o', ev) -> exists p', parse_list d vops cs (o, pos0) = (Ok (o', p'), ev).
  Proof.
    unfold parse_notations. intros H. apply rbind_ok in H as ([o1 p1] & e1 & e2 & H1 & H & ->).
    destruct (_ && _); [discriminate|]. apply ret_ok in H as [-> ->]. rewrite app_nil_r. eauto.
  Qed.

  Lemma parse_notations_skip vops cs o o' ev :
    skip_ok o -> parse_notations d vops cs o = (Ok o', ev) -> skip_ok o'.
  Proof.
    intros Hs H. apply parse_notations_ok in H as [p' H].
    eapply (parse_list_inv skip_ok); [apply parse_one_skip|exact Hs|exact H].
  Qed.
End Notations.

Section Entries.
  Variable d : dump.

  (** the test of findConvergenEntries on an interface: named Convergen, or marked in its doc comment *)
  Definition is_target_in (st : store) (i : iface_decl) : bool :=
    str_eqb (if_name i) Extracted.intf_name ||
    match get_doc st (if_chain i) with
    | Some (_, gi) => existsb (fun c => is_convergen_marker (c_text c)) (group_of st gi)
    | None => false
    end.

  (** every entry is an interface of the input file with options parsed from the defaults; one named
      Convergen is always an entry *)
  Lemma find_entries_loop_ok ifs : forall st acc es st' ev,
    find_entries_loop d ifs st acc = (Ok (es, st'), ev) ->
    exists new, es = rev acc ++ new /\
      (forall e, In e new ->
         In (ie_decl e) ifs /\ if_in_src (ie_decl e) = true /\
         exists nots ev', parse_notations d Extracted.valid_ops_intf nots new_options = (Ok (ie_opts e), ev')) /\
      (forall i, In i ifs -> if_in_src i = true -> str_eqb (if_name i) Extracted.intf_name = true ->
                 exists e, In e new /\ ie_decl e = i).
  Proof.
    induction ifs as [|i ifs IH]; intros st acc es st' ev H; cbn [find_entries_loop] in H.
    - apply ret_ok in H as [[= <- _] _]. exists []. rewrite app_nil_r.
      split; [reflexivity|]. split; intros ? [].
    - destruct (if_in_src i) eqn:Esrc; [destruct (str_eqb (if_name i) Extracted.intf_name || _) eqn:Et|]; cbn [negb] in H.
      { destruct (extract_notations st (get_doc st (if_chain i))) as [nots st1].
        apply rbind_ok in H as (opts & e1 & e2 & Ho & H & _).
        apply IH in H as (new & -> & H1 & H2).
        cbn [rev]. rewrite <- app_assoc. eexists (_ :: new). split; [reflexivity|]. split.
        - intros e [<-|He]; cbn [ie_decl ie_opts]; [eauto 6 using in_eq|].
          destruct (H1 e He) as (? & ? & ?). auto using in_cons.
        - intros j [<-|Hj] Hs Hn.
          + eexists. split; [now left|reflexivity].
          + destruct (H2 j Hj Hs Hn) as (e & He & <-). exists e. split; [now right|reflexivity]. }
      (* passed over, for either reason: the entries are those of the rest, and it is not one that had to be taken *)
      all: apply IH in H as (new & -> & H1 & H2); exists new; split; [reflexivity|].
      all: split; [intros e He; destruct (H1 e He) as (? & ? & ?); auto using in_cons|].
      all: intros j [<-|Hj] Hs Hn; [|now apply H2].
      + rewrite Hn in Et. discriminate.
      + congruence.
  Qed.

  (** a file without any entry is rejected with a diagnostic *)
  Lemma find_entries_ok st es st' ev :
    find_entries d st = (Ok (es, st'), ev) ->
    es <> [] /\ find_entries_loop d (d_ifaces d) st [] = (Ok (es, st'), ev).
  Proof.
    unfold find_entries. intros H. apply rbind_ok in H as ([es0 st0] & e1 & e2 & H0 & H & ->). cbn [fst] in H.
    destruct es0; [discriminate|]. apply ret_ok in H as [[= <- <-] ->]. rewrite app_nil_r.
    split; [discriminate|exact H0].
  Qed.
End Entries.

Section ParseMethods.
  Variable d : dump.

  (** the entry carries the method, which has operands, and the method's notations applied to [opts] *)
  Lemma parse_method_ok m opts st me ev st' :
    parse_method d m opts st = (Ok me, ev, st') ->
    me_decl me = m /\ sg_ptys (md_sig m) <> [] /\ sg_rtys (md_sig m) <> [] /\
    parse_notations d Extracted.valid_ops_method (fst (extract_notations st (get_doc st (md_chain m)))) opts
      = (Ok (me_opts me), ev).
  Proof.
    unfold parse_method.
    destruct (sg_ptys (md_sig m)); [discriminate|]. destruct (sg_rtys (md_sig m)); [discriminate|].
    destruct (extract_notations st (get_doc st (md_chain m))) as [nots st1]. cbn [fst].
    destruct (parse_notations d Extracted.valid_ops_method nots opts) as [[o| | | |] ev1]; try discriminate.
    intros H. injection H as <- <- _. repeat split; discriminate.
  Qed.

  (** all or nothing: on success every method has its entry, in order *)
  Lemma parse_methods_loop_ok ms : forall opts st acc failed ev0 res st' ev,
    parse_methods_loop d ms opts st acc failed ev0 = (Ok res, st', ev) ->
    failed = false /\ exists new, res = rev acc ++ new /\ List.map me_decl new = ms /\
      forall me, In me new -> exists st_i ev_i st_j, parse_method d (me_decl me) opts st_i = (Ok me, ev_i, st_j).
  Proof.
    induction ms as [|m ms IH]; intros opts st acc failed ev0 res st' ev H; cbn [parse_methods_loop] in H.
    - destruct failed; [discriminate|]. injection H as <- _ _. split; [reflexivity|].
      exists []. rewrite app_nil_r. repeat split. intros ? [].
    - destruct (parse_method d m opts st) as [[[me|e|s| |w] ev1] st1] eqn:Ep; try discriminate.
      + apply IH in H as (Hf & new & -> & Hm & Hn). split; [exact Hf|].
        exists (me :: new). cbn [rev]. rewrite <- app_assoc. split; [reflexivity|].
        pose proof (parse_method_ok _ _ _ _ _ _ Ep) as [Hd _]. split; [cbn [List.map]; congruence|].
        intros x [<-|Hx]; [rewrite Hd; eauto|auto].
      + apply IH in H as (Hf & _). discriminate.
  Qed.

  (** success never drops a method *)
  Lemma parse_methods_loop_decls ms opts st res st' ev :
    parse_methods_loop d ms opts st [] false [] = (Ok res, st', ev) -> List.map me_decl res = ms.
  Proof. intros H. apply parse_methods_loop_ok in H as (_ & new & -> & Hm & _). exact Hm. Qed.
End ParseMethods.
