(** MatchProofs.v — how structToStruct decides a field: the name pass, the name match
    (structFieldAndStructGettersAndFields), the precedence chain in front of it, and the induction
    principle over a whole run that the theorems about every returned entry (C01, C05) are
    instances of; at the end the lemmas on default matching that props/C04.v states. *)
From Cvg Require Import Base GoTypes Matcher Dump Options Builder.
From Cvg.proofs Require Import BuilderProofs.
Open Scope N_scope.

Section MatchProofs.
  Variable d : dump.
  Variable o : options.
  Variable mpos : position.
  Let E := d_env d.

  (** what the name pass can produce for [lhs] from a candidate [r] *)
  Inductive from_candidate (lhs r : node) : assignment -> Prop :=
  | FcSimple n : cast_shape d o r (expr_type lhs) n -> from_candidate lhs r (ASimple lhs (RNode n) (returns_error n))
  | FcSlice t : from_candidate lhs r (ASlice lhs r t)
  | FcSliceLoop t : from_candidate lhs r (ASliceLoop lhs r t)
  | FcSliceCast t c : o_typecast o = true -> from_candidate lhs r (ASliceCast lhs r t c)
  | FcNest cs : is_struct_type E (expr_type lhs) = true -> is_struct_type E (expr_type r) = true ->
                from_candidate lhs r (ANest cs).

  Lemma slice_to_slice_from lhs r a ev :
    slice_to_slice d o lhs r = (Ok (Some a), ev) -> from_candidate lhs r a.
  Proof. intros H. apply yields_intro, slice_to_slice_shape in H. destruct H; now constructor. Qed.

  (** ** the name pass: the FIRST accessible same-named candidate decides *)
  Definition cand_ok (lhs R r : node) : bool :=
    is_field_accessible d R (obj_name r) && compare_field_name o (obj_name lhs) (obj_name r).

  Lemma name_pass_first s2s lhs R : forall cands,
    name_pass d o mpos s2s lhs R cands =
      match find (cand_ok lhs R) cands with
      | None => ret PNotFound
      | Some r => name_pass d o mpos s2s lhs R [r]
      end.
  Proof.
    induction cands as [|r cands IH]; [reflexivity|].
    cbn [find name_pass]. unfold cand_ok at 1.
    destruct (is_field_accessible d R (obj_name r)) eqn:Ea, (compare_field_name o (obj_name lhs) (obj_name r)) eqn:Ec;
      cbn [andb negb orb]; [now rewrite Ea, Ec|exact IH..].
  Qed.

  Lemma found_cand lhs R cands r :
    find (cand_ok lhs R) cands = Some r ->
    In r cands /\ is_field_accessible d R (obj_name r) = true /\
    compare_field_name o (obj_name lhs) (obj_name r) = true.
  Proof. intros H. apply find_some in H as [Hin Hok]. apply andb_true_iff in Hok. tauto. Qed.

  Lemma name_pass_none s2s lhs R cands :
    (forall r, In r cands -> cand_ok lhs R r = false) ->
    name_pass d o mpos s2s lhs R cands = ret PNotFound.
  Proof.
    intros H. rewrite name_pass_first.
    destruct (find (cand_ok lhs R) cands) as [r|] eqn:Efi; [|reflexivity].
    apply find_some in Efi as [Hin Hok]. rewrite (H r Hin) in Hok. discriminate.
  Qed.

  (** a first candidate that is assignable as it stands (and not a slice pair) is assigned as it stands *)
  Lemma name_pass_assignable s2s lhs R cands r :
    find (cand_ok lhs R) cands = Some r ->
    (is_slice (expr_type lhs) && is_slice (expr_type r)) = false ->
    assignable E (expr_type r) (expr_type lhs) = true ->
    name_pass d o mpos s2s lhs R cands = ret (PDone (Some (ASimple lhs (RNode r) (returns_error r))) false).
  Proof.
    intros Hf Hs Ha. rewrite name_pass_first, Hf. cbn [name_pass].
    apply found_cand in Hf as (_ & H1 & H2).
    rewrite H1, H2, Hs. cbn [negb orb]. unfold cast_node. fold E. rewrite Ha. reflexivity.
  Qed.

  Section Run.
    Variable EV : list event.

    (** an entry for [lhs] that is not a member-wise block *)
    Inductive leaf_entry (lhs : node) : assignment -> Prop :=
    | LSkip : leaf_entry lhs (ASkip lhs)
    | LNoMatch : warning_in EV lhs -> leaf_entry lhs (ANoMatch lhs)
    | LLiteral t : leaf_entry lhs (ASimple lhs (RLiteral t) false)
    | LFitted src n e : cast_shape d o src (expr_type lhs) n -> leaf_entry lhs (ASimple lhs (RNode n) e)
    | LCopied r a : slice_shape d o lhs r a -> leaf_entry lhs a.

    Section NameMatch.
      (** the member-wise descent into a by-value struct pair *)
      Variable s2s : node -> node -> res (list assignment).

      (** what the handler answers for [lhs] at the candidate [r] it stops at *)
      Inductive answered_by (lhs r : node) : pass_result -> Prop :=
      | ByCopy a : slice_shape d o lhs r a -> answered_by lhs r (PDone (Some a) false)
      | ByFit n : cast_shape d o r (expr_type lhs) n ->
                  answered_by lhs r (PDone (Some (ASimple lhs (RNode n) (returns_error n))) false)
      | ByDescent cs : is_struct_type E (expr_type lhs) = true -> is_struct_type E (expr_type r) = true ->
                       yields EV (s2s lhs r) cs ->
                       answered_by lhs r (PDone (match cs with [] => None | _ => Some (ANest cs) end) true)
      | ByNothing : answered_by lhs r (PDone None false).

      Lemma name_pass_yields lhs R cands res :
        yields EV (name_pass d o mpos s2s lhs R cands) res ->
        match find (cand_ok lhs R) cands with
        | Some r => answered_by lhs r res
        | None => res = PNotFound
        end.
      Proof.
        rewrite name_pass_first.
        destruct (find (cand_ok lhs R) cands) as [r|] eqn:Ef; [|intros H; now apply yields_ret in H].
        apply found_cand in Ef as (_ & Ha & Hc). cbn [name_pass]. rewrite Ha, Hc. cbn [negb orb]. intros H.
        apply yields_bind in H as ([a|] & Hsl & H).
        { apply yields_ret in H as <-.
          destruct (is_slice (expr_type lhs) && is_slice (expr_type r)); [|apply yields_ret in Hsl; discriminate].
          apply ByCopy. eapply slice_to_slice_shape; exact Hsl. }
        apply yields_bind in H as ([n|] & Hn & H).
        { apply yields_ret in H as <-. apply ByFit. eapply cast_node_shape; exact Hn. }
        fold E in H.
        destruct (is_struct_type E (expr_type lhs)) eqn:El, (is_struct_type E (expr_type r)) eqn:Er; cbn [andb] in H;
          try (apply yields_ret in H as <-; apply ByNothing).
        apply yields_bind in H as (cs & Hcs & H). apply yields_ret in H as <-. now apply ByDescent.
      Qed.

      (** the candidate lists the name match runs a pass over *)
      Inductive consulted (R : node) : list node -> Prop :=
      | Getters : o_getter o = true -> consulted R (getter_nodes d R)
      | Fields : str_eqb (o_rule o) rule_name = true -> consulted R (field_nodes d R).

      (** the name match: the answer of a consulted pass at its first same-named candidate, or `no match` *)
      Inductive name_answer (lhs R : node) : option assignment -> Prop :=
      | NameFrom cands r a b :
          consulted R cands -> find (cand_ok lhs R) cands = Some r ->
          answered_by lhs r (PDone a b) -> (a = None -> b = true) -> name_answer lhs R a
      | NameNoMatch : warning_in EV lhs -> name_answer lhs R (Some (ANoMatch lhs)).

      (** One pass, run or not, with its result projected the way name_match_with reads it.  The pass counts if
          it produced an assignment, or descended a struct pair that came back empty: [gn] is the `nested`
          flag, which keeps the field from being reported `no match`. *)
      Lemma pass_answer (on : bool) lhs R cands g ga gn :
        (on = true -> consulted R cands) ->
        yields EV (if on then name_pass d o mpos s2s lhs R cands else ret PNotFound) g ->
        match g with PDone a n => (a, n) | PNotFound => (None, false) end = (ga, gn) ->
        (ga = None -> gn = true) -> name_answer lhs R ga.
      Proof.
        intros Hon Hg Eg Hga.
        assert (Hno : g = PNotFound -> name_answer lhs R ga).
        { intros ->. injection Eg as <- <-. now specialize (Hga eq_refl). }
        destruct on; [|apply Hno; now apply yields_ret in Hg].
        apply name_pass_yields in Hg. destruct (find (cand_ok lhs R) cands) as [r|] eqn:Ef; [|auto].
        destruct g as [|a n]; [auto|]. injection Eg as <- <-. eapply NameFrom; eauto.
      Qed.

      Lemma name_match_with_yields lhs R a :
        yields EV (name_match_with d o mpos s2s lhs R) a -> name_answer lhs R a.
      Proof.
        unfold name_match_with. intros H.
        apply yields_bind in H as (g & Hg & H).
        destruct (match g with PDone a n => (a, n) | PNotFound => (None, false) end) as [ga gn] eqn:Eg.
        assert (Pg : (ga = None -> gn = true) -> name_answer lhs R ga) by (eapply pass_answer; [apply Getters|exact Hg|exact Eg]).
        destruct ga as [x|]; [apply yields_ret in H as <-; now apply Pg|].
        apply yields_bind in H as (f & Hf & H).
        destruct (match f with PDone a n => (a, n) | PNotFound => (None, false) end) as [fa fn] eqn:Ef.
        assert (Pf : (fa = None -> fn = true) -> name_answer lhs R fa) by (eapply pass_answer; [apply Fields|exact Hf|exact Ef]).
        destruct fa as [x|]; [apply yields_ret in H as <-; now apply Pf|].
        destruct (str_eqb (o_rule o) rule_name && (gn || fn)) eqn:Eb.
        - apply yields_ret in H as <-. apply andb_true_iff in Eb as [_ Eb]. apply orb_true_iff in Eb as [Eb|Eb]; auto.
        - apply yields_bind in H as (x & Hx & H). apply yields_ret in H as <-.
          apply no_match_warn_shape in Hx as [-> Hw]. now apply NameNoMatch.
      Qed.

      Lemma name_answer_cases lhs R a :
        name_answer lhs R a ->
        (exists x, a = Some x /\ leaf_entry lhs x) \/
        (exists r cs, is_struct_type E (expr_type lhs) = true /\ yields EV (s2s lhs r) cs /\
                      a = match cs with [] => None | _ => Some (ANest cs) end).
      Proof.
        intros [cands r a0 b _ _ Hans Hb|Hw]; [|left; eexists; split; [reflexivity|now constructor]].
        inversion Hans; subst.
        - left. eexists. split; [reflexivity|]. eapply LCopied; eassumption.
        - left. eexists. split; [reflexivity|]. eapply LFitted; eassumption.
        - right. eauto.
        - specialize (Hb eq_refl). discriminate.
      Qed.
    End NameMatch.

    Lemma match_field_with_yields nm lhs rhs args a :
      yields EV (match_field_with d o mpos nm lhs rhs args) a ->
      (exists x, a = Some x /\ leaf_entry lhs x) \/ yields EV (nm lhs rhs) a.
    Proof.
      unfold match_field_with. intros H.
      assert (Leaf : forall x, leaf_entry lhs x ->
                (exists y, Some x = Some y /\ leaf_entry lhs y) \/ yields EV (nm lhs rhs) (Some x)) by eauto.
      destruct (should_skip (o_skip o) (matcher_expr lhs) (o_exact o)) as [[|]| |];
        try (destruct H as (? & H & _); discriminate).
      { apply yields_ret in H as <-. apply Leaf. constructor. }
      (* an explicit notation yields `no match` with its warning, or an expression castNode fitted *)
      destruct (find _ (o_conv o)) as [c|].
      { apply yields_map in H as (x & [[-> Hw]|(src & arg & n & _ & _ & _ & -> & Hn)]%create_with_converter_shape & ->);
          apply Leaf; [now constructor|eapply LFitted; exact Hn]. }
      destruct (find _ (o_map o)) as [m|].
      { apply yields_map in H as (x & [[-> Hw]|(src & n & _ & -> & Hn)]%create_with_mapper_shape & ->);
          apply Leaf; [now constructor|eapply LFitted; exact Hn]. }
      destruct (find _ (o_tmap o)) as [m|].
      { apply yields_map in H as (x & [[-> Hw]|(src & n & _ & -> & Hn)]%create_with_templated_shape & ->);
          apply Leaf; [now constructor|eapply LFitted; exact Hn]. }
      destruct (find _ (o_lit o)) as [l|]; [|now right].
      apply yields_ret in H as <-. apply Leaf. constructor.
    Qed.

    (** ** Induction over a run of structToStruct.  [P f r]: [r] is a good answer for the destination field
        [f]; [Q L fs l]: the entries [l] are good for the fields [fs] of [L].  A by-value struct pair whose
        descent returns nothing contributes no entry. *)
    Section Induction.
      Variable P : node -> option assignment -> Prop.
      Variable Q : node -> list node -> list assignment -> Prop.
      Hypothesis Pleaf : forall f a, leaf_entry f a -> P f (Some a).
      Hypothesis Pnest : forall f cs,
        is_struct_type E (expr_type f) = true -> Q f (field_nodes d f) cs ->
        P f (match cs with [] => None | _ => Some (ANest cs) end).
      Hypothesis Qnil : forall L, Q L [] [].
      Hypothesis Qhidden : forall L f fs l,
        is_field_accessible d L (obj_name f) = false -> Q L fs l -> Q L (f :: fs) l.
      Hypothesis Qfield : forall L f fs r l,
        is_field_accessible d L (obj_name f) = true -> P f r -> Q L fs l ->
        Q L (f :: fs) (match r with Some a => a :: l | None => l end).

      Theorem struct_to_struct_ind fuel : forall L R args l,
        yields EV (struct_to_struct d o mpos fuel L R args) l -> Q L (field_nodes d L) l.
      Proof.
        induction fuel as [|fuel IH]; intros L R args l H; cbn [struct_to_struct] in H;
          [destruct H as (? & H & _); discriminate|].
        revert l H. generalize (field_nodes d L) as fs. induction fs as [|f fs IHfs]; intros l H; cbn [fields_loop] in H.
        { apply yields_ret in H as <-. apply Qnil. }
        destruct (is_field_accessible d L (obj_name f)) eqn:Ea; cbn [negb] in H; [|apply Qhidden; auto].
        apply yields_bind in H as (r & Hr & H). apply yields_bind in H as (rest & Hrest & H).
        apply yields_ret in H as <-. apply Qfield; [exact Ea| |apply IHfs, Hrest].
        apply match_field_with_yields in Hr as [(x & -> & Hx)|Hr]; [now apply Pleaf|].
        apply name_match_with_yields, name_answer_cases in Hr as [(x & -> & Hx)|(r0 & cs & Hs & Hcs & ->)];
          [now apply Pleaf|].
        apply Pnest; [exact Hs|]. eapply IH. exact Hcs.
      Qed.
    End Induction.
  End Run.

  Lemma answered_by_from EV s2s lhs r a b :
    answered_by EV s2s lhs r (PDone (Some a) b) -> from_candidate lhs r a.
  Proof.
    inversion 1 as [a0 Hs|n Hn|cs Hl Hr _ Hcs|]; subst.
    - destruct Hs; now constructor.
    - now constructor.
    - destruct cs; [discriminate|]. injection Hcs as <-. now constructor.
  Qed.

  Lemma name_pass_from s2s lhs R : forall cands a b ev,
    name_pass d o mpos s2s lhs R cands = (Ok (PDone (Some a) b), ev) ->
    exists r, In r cands /\ is_field_accessible d R (obj_name r) = true /\
              compare_field_name o (obj_name lhs) (obj_name r) = true /\ from_candidate lhs r a.
  Proof.
    intros cands a b ev H. apply yields_intro, name_pass_yields in H.
    destruct (find (cand_ok lhs R) cands) as [r|] eqn:Ef; [|discriminate].
    apply found_cand in Ef as (? & ? & ?). apply answered_by_from in H. eauto.
  Qed.

  (** C04: an entry produced by the default name match is `no match`, or comes
      from a getter candidate (only with :getter) or a field candidate (only with
      :match name) that is accessible and has the same name under the case rule. *)
  Theorem name_match_sources s2s lhs R a ev :
    name_match_with d o mpos s2s lhs R = (Ok (Some a), ev) ->
    a = ANoMatch lhs \/
    (exists r, o_getter o = true /\ In r (getter_nodes d R) /\
               is_field_accessible d R (obj_name r) = true /\
               compare_field_name o (obj_name lhs) (obj_name r) = true /\ from_candidate lhs r a) \/
    (exists r, str_eqb (o_rule o) rule_name = true /\ In r (field_nodes d R) /\
               is_field_accessible d R (obj_name r) = true /\
               compare_field_name o (obj_name lhs) (obj_name r) = true /\ from_candidate lhs r a).
  Proof.
    intros H. apply yields_intro, name_match_with_yields in H.
    inversion H as [cands r a0 b Hc Hf Hans _|]; subst; [right|now left].
    apply found_cand in Hf as (? & ? & ?). apply answered_by_from in Hans.
    destruct Hc; [left|right]; exists r; auto.
  Qed.

  (** with :match none and without :getter nothing is matched by name *)
  Theorem match_none_matches_nothing s2s lhs R a ev :
    str_eqb (o_rule o) rule_name = false -> o_getter o = false ->
    name_match_with d o mpos s2s lhs R = (Ok a, ev) -> a = Some (ANoMatch lhs).
  Proof.
    intros Hr Hg H. apply yields_intro, name_match_with_yields in H.
    destruct H as [cands r a b [Hc|Hc] _ _ _|]; [congruence|congruence|reflexivity].
  Qed.

  (** nothing accessible of that name among getters (when consulted) and fields (when consulted):
      the field is reported `no match` *)
  Theorem name_match_no_candidate s2s lhs R a ev :
    (o_getter o = true -> forall r, In r (getter_nodes d R) -> cand_ok lhs R r = false) ->
    (str_eqb (o_rule o) rule_name = true -> forall r, In r (field_nodes d R) -> cand_ok lhs R r = false) ->
    name_match_with d o mpos s2s lhs R = (Ok a, ev) -> a = Some (ANoMatch lhs).
  Proof.
    intros Hg Hf H. apply yields_intro, name_match_with_yields in H.
    destruct H as [cands r a b Hc Hfi _ _|]; [exfalso|reflexivity].
    apply find_some in Hfi as [Hin Hok].
    destruct Hc as [Hc|Hc]; [rewrite (Hg Hc r Hin) in Hok|rewrite (Hf Hc r Hin) in Hok]; discriminate.
  Qed.
End MatchProofs.
