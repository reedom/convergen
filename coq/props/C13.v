(** C13 — output is a deterministic function of the sources and flags.
    In the model everything is a Gallina function of the dump (types, comments,
    positions) — so the statement of interest is about the two places where the
    Go code consults something that is not a function of the sources: the
    iteration order of the import-name map (LookupPath) and the random marker.
    Process, time, environment and working directory are outside any model:
    they are exercised by the repeated-run correspondence of check C13. *)
From Coq Require Import Permutation.
From Cvg Require Import Base Dump Options BaseCode.
From Cvg.proofs Require Import DeterminismProofs BaseCodeProofs.
Open Scope N_scope.

(** Map order: for every iteration order (permutation) of the import table, a
    name that denotes at most one import path resolves to the same path. *)
Theorem C13_order_independent :
  forall table table' name,
    Permutation table table' -> unambiguous table name ->
    lookup_path_in table name = lookup_path_in table' name.
Proof.
  intros table table' name HP U. unfold lookup_path_in.
  now rewrite (find_permutation _ table table' HP U).
Qed.
Print Assumptions C13_order_independent.

(** the model's LookupPath is that function on the table built by NewImportNames *)
Theorem C13_lookup_path_is_table_lookup :
  forall d name, lookup_path d name = lookup_path_in (import_names d) name.
Proof. reflexivity. Qed.
Print Assumptions C13_lookup_path_is_table_lookup.

(** The table itself is built in source order (the blank-import renaming walks a
    slice, not the map): it is a function of the import list alone. *)
Theorem C13_import_table_is_a_function_of_the_imports :
  forall d1 d2, d_imports d1 = d_imports d2 -> import_names d1 = import_names d2.
Proof. intros d1 d2 H. unfold import_names. now rewrite H. Qed.
Print Assumptions C13_import_table_is_a_function_of_the_imports.

(** Marker: the functions, diagnostics and the comment surgery before marker
    insertion do not depend on the marker at all ([run_pipeline] has no marker
    parameter); the marker only names the insertion comments and is replaced by
    the functions: where it stood, exactly the functions' text stands, whatever
    the marker is, as long as it does not occur earlier in the text. *)
Theorem C13_marker_replaced_by_functions :
  forall m1 m2 text pre post,
    m1 <> [] -> m2 <> [] ->
    (forall k, (k < List.length pre)%nat -> is_prefix m1 (skipn k (pre ++ m1 ++ post)) = false) ->
    (forall k, (k < List.length pre)%nat -> is_prefix m2 (skipn k (pre ++ m2 ++ post)) = false) ->
    replace_first m1 text (pre ++ m1 ++ post) = replace_first m2 text (pre ++ m2 ++ post).
Proof. intros. now rewrite !replace_first_spec. Qed.
Print Assumptions C13_marker_replaced_by_functions.
