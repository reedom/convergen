(** C05 — every reachable destination field is accounted for exactly once. *)
From Coq Require Import String.
From Cvg Require Import Base Options Builder.
From Cvg.proofs Require Import PartitionProofs WarnProofs.
Open Scope N_scope.

(** The partition theorem. For every dump, options, fuel, destination struct
    node L, source node R and additional arguments: the entries structToStruct
    returns cover L's field list in order ([covers], PartitionProofs.v):
    an inaccessible field has no entry; an accessible field has exactly one
    entry — an assignment / skip / no-match on the field itself, or a non-empty
    member-wise block that in turn covers the field's own struct type — except
    a by-value struct field below which there is no leaf at all (all accessible
    members are, recursively, such structs): that one is dropped (known finding
    C05-empty-nested-dropped; [CvLeafless] makes the exception explicit). *)
Theorem C05_partition :
  forall d o mpos fuel L R args l ev,
    struct_to_struct d o mpos fuel L R args = (Ok l, ev) -> covers d L (field_nodes d L) l.
Proof. exact struct_to_struct_covers. Qed.
Print Assumptions C05_partition.

(** No field is written twice at one level, none is invented: there are at most
    as many entries as fields, and the subject of every leaf entry is an
    accessible field of L. *)
Theorem C05_no_more_entries_than_fields :
  forall d L fs l, covers d L fs l -> (List.length l <= List.length fs)%nat.
Proof. exact covers_length. Qed.
Print Assumptions C05_no_more_entries_than_fields.

Theorem C05_invisible_never_mentioned :
  forall d L fs l, covers d L fs l ->
  forall a n, In a l -> subject a = Some n -> In n fs /\ is_field_accessible d L (obj_name n) = true.
Proof. exact covers_subjects. Qed.
Print Assumptions C05_invisible_never_mentioned.
(** [is_field_accessible] is the code's own notion (isStructFieldAccessible): it
    treats anonymous struct types as always accessible, so members of an
    anonymous struct nested in an imported type are "accessible" here although
    Go hides the unexported ones: known finding C05-anon-struct-imported. *)

(** Every field reported `no match` — at any nesting depth of the returned entries — has its
    warning among the events of the run: a stderr line "<line>:<col>: no assignment for
    <path> [<type>]" at some position (in the model, as in the code, that of the method or of the
    notation that addressed the field; the statement does not say which). *)
Theorem C05_every_no_match_has_a_positioned_warning :
  forall d o mpos fuel L R args l ev,
    struct_to_struct d o mpos fuel L R args = (Ok l, ev) ->
    forall n, In n (nomatches_list l) ->
    exists pos tn,
      In (EvStderr (pos_str pos ++ s2b ": " ++ s2b "no assignment for " ++ assign_expr n ++ s2b " [" ++ tn ++ s2b "]")) ev.
Proof. exact struct_to_struct_warned. Qed.
Print Assumptions C05_every_no_match_has_a_positioned_warning.
