(** BuilderProofs.v — the leaves of Builder.v: what castNode, sliceToSlice and the handlers of
    the explicit notations return when they succeed, and the precedence chain of
    matchStructFieldAndStruct as equations.  The layers above them (name pass, name match, the
    loop over the fields) are in MatchProofs.v. *)
From Coq Require Import String.
From Cvg Require Import Base GoTypes Matcher Dump Options Builder.
Open Scope N_scope.

Lemma assignment_nest_ind (P : assignment -> Prop) :
  (forall l, P (ASkip l)) -> (forall l, P (ANoMatch l)) -> (forall l r e, P (ASimple l r e)) ->
  (forall cs, Forall P cs -> P (ANest cs)) ->
  (forall l r t, P (ASlice l r t)) -> (forall l r t, P (ASliceLoop l r t)) ->
  (forall l r t c, P (ASliceCast l r t c)) ->
  forall a, P a.
Proof.
  intros Hskip Hno Hsimple Hnest Hslice Hloop Hcast. fix IH 1.
  intros [l|l|l r e|cs|l r t|l r t|l r t c];
    [apply Hskip|apply Hno|apply Hsimple| |apply Hslice|apply Hloop|apply Hcast].
  apply Hnest. induction cs as [|c cs IHcs]; constructor; [apply IH|exact IHcs].
Qed.

Lemma rbind_ok {A B} (m : res A) (f : A -> res B) b ev :
  rbind m f = (Ok b, ev) ->
  exists a ev1 ev2, m = (Ok a, ev1) /\ f a = (Ok b, ev2) /\ ev = ev1 ++ ev2.
Proof.
  unfold rbind. destruct m as [[a|e|s| |w] ev1]; try discriminate.
  destruct (f a) as [o ev2] eqn:E. intros H. injection H as -> <-.
  exists a, ev1, ev2. auto.
Qed.

Lemma ret_ok {A} (a b : A) ev : ret a = (Ok b, ev) -> a = b /\ ev = [].
Proof. unfold ret. intros H. injection H as -> <-. auto. Qed.

Lemma lift_ok {A} (o : outcome A) b ev : lift o = (Ok b, ev) -> o = Ok b /\ ev = [].
Proof. unfold lift. intros H. injection H as -> <-. auto. Qed.

(** peels successful binds off a hypothesis *)
Ltac inv_res :=
  repeat match goal with
  | H : rbind _ _ = (Ok _, _) |- _ =>
      let a := fresh "a" in let e1 := fresh "ev" in let e2 := fresh "ev" in
      let H1 := fresh "H" in let H2 := fresh "H" in let H3 := fresh "H" in
      apply rbind_ok in H; destruct H as (a & e1 & e2 & H1 & H2 & H3)
  | H : ret _ = (Ok _, _) |- _ => apply ret_ok in H; destruct H; subst
  end.

(** [yields EV m a]: [m] succeeds with [a] and all its events are among [EV].  With [EV] fixed to the
    events of the whole run, the event lists of the parts stay out of sight, and a warning emitted
    anywhere is known to be in [EV]. *)
Definition yields {A} (EV : list event) (m : res A) (a : A) : Prop :=
  exists ev, m = (Ok a, ev) /\ incl ev EV.

Lemma yields_intro {A} (m : res A) a ev : m = (Ok a, ev) -> yields ev m a.
Proof. intros H. exists ev. split; [exact H|apply incl_refl]. Qed.

Lemma yields_bind {A B} EV (m : res A) (f : A -> res B) b :
  yields EV (rbind m f) b -> exists a, yields EV m a /\ yields EV (f a) b.
Proof.
  intros (ev & H & Hin). apply rbind_ok in H as (a & e1 & e2 & H1 & H2 & ->).
  apply incl_app_inv in Hin as [Hin1 Hin2]. exists a. split; eexists; eauto.
Qed.

Lemma yields_ret {A} EV (a b : A) : yields EV (ret a) b -> a = b.
Proof. intros (ev & H & _). now apply ret_ok in H. Qed.

Lemma yields_map {A B} EV (m : res A) (g : A -> B) b :
  yields EV (doR a <- m; ret (g a)) b -> exists a, yields EV m a /\ b = g a.
Proof. intros H. apply yields_bind in H as (a & Ha & H). apply yields_ret in H. eauto. Qed.

Lemma yields_lift {A} EV (o : outcome A) b : yields EV (lift o) b -> o = Ok b.
Proof. intros (ev & H & _). now apply lift_ok in H. Qed.

Lemma yields_errorf {A} EV msg (a : A) : ~ yields EV (errorf msg) a.
Proof. intros (ev & H & _). discriminate. Qed.

Section BuilderProofs.
  Variable d : dump.
  Variable o : options.
  Variable mpos : position.
  (** the events of the whole run *)
  Variable EV : list event.

  (** castNode returns the node itself, a String() call on it (only with
      :stringer), or a conversion of it (only with :typecast). *)
  Inductive cast_shape (r : node) (t : ty) : node -> Prop :=
  | CSame : assignable (d_env d) (expr_type r) t = true -> cast_shape r t r
  | CStringer : returns_error r = false -> o_stringer o = true -> assignable (d_env d) string_ty t = true ->
                complies_stringer (d_env d) (expr_type r) = true -> cast_shape r t (NStringer r)
  | CCast e : returns_error r = false -> o_typecast o = true -> convertible (d_env d) (expr_type r) t = true -> cast_shape r t (NCast r t e).

  Lemma new_typecast_shape t r n :
    new_typecast d t r = Ok (Some n) -> exists e, n = NCast r t e.
  Proof.
    unfold new_typecast.
    destruct (deref_ptr t) as [k nm|i| | | | | | | | | ]; try discriminate.
    - intros H. injection H as <-. eauto.
    - destruct (get_named (d_env d) i) as [nn|]; [|discriminate].
      destruct (negb (n_has_pkg nn) || str_eqb (n_pkg_path nn) (d_pkg_path d)).
      + intros H. injection H as <-. eauto.
      + destruct (lookup_name d (n_pkg_path nn)) as [pn|]; [destruct (str_eqb pn [46])|]; intros H; injection H as <-; eauto.
  Qed.

  Lemma cast_node_shape t r n :
    yields EV (cast_node d o mpos t r) (Some n) -> cast_shape r t n.
  Proof.
    unfold cast_node.
    destruct (assignable (d_env d) (expr_type r) t) eqn:Ea.
    { intros H. apply yields_ret in H. injection H as <-. now constructor. }
    destruct (returns_error r) eqn:Ere.
    { intros H. apply yields_ret in H. discriminate. }
    destruct (o_stringer o && assignable (d_env d) string_ty t && complies_stringer (d_env d) (expr_type r)) eqn:Es.
    { intros H. apply yields_ret in H. injection H as <-.
      apply andb_true_iff in Es as [Es Es3]. apply andb_true_iff in Es as [Es1 Es2]. now constructor. }
    destruct (o_typecast o && convertible (d_env d) (expr_type r) t) eqn:Et.
    2:{ intros H. apply yields_ret in H. discriminate. }
    apply andb_true_iff in Et as [Et Et2].
    intros H. apply yields_bind in H as ([c|] & Hc & H).
    - apply yields_ret in H. injection H as ->.
      apply yields_lift, new_typecast_shape in Hc as [e ->]. now constructor.
    - (* a target NewTypecast cannot render: a warning, and nothing *)
      apply yields_bind in H as (tn & _ & H). apply yields_bind in H as (u & _ & H).
      apply yields_ret in H. discriminate.
  Qed.

  (** sliceToSlice: copy, an assigning loop, or a converting loop (only with :typecast, and only where
      the elements are not assignable) *)
  Inductive slice_shape (l r : node) : assignment -> Prop :=
  | SCopy le re t :
      slice_elem (expr_type l) = Some le -> slice_elem (expr_type r) = Some re ->
      assignable (d_env d) re le = true -> is_basic re = true -> identical false le re = true ->
      slice_shape l r (ASlice l r t)
  | SLoop le re t :
      slice_elem (expr_type l) = Some le -> slice_elem (expr_type r) = Some re ->
      assignable (d_env d) re le = true -> slice_shape l r (ASliceLoop l r t)
  | SConvert le re t c :
      slice_elem (expr_type l) = Some le -> slice_elem (expr_type r) = Some re ->
      assignable (d_env d) re le = false -> o_typecast o = true -> convertible (d_env d) re le = true ->
      slice_shape l r (ASliceCast l r t c).

  Lemma slice_to_slice_shape l r a :
    yields EV (slice_to_slice d o l r) (Some a) -> slice_shape l r a.
  Proof.
    unfold slice_to_slice.
    destruct (slice_elem (expr_type l)) as [le|] eqn:El; [|intros H; apply yields_ret in H; discriminate].
    destruct (slice_elem (expr_type r)) as [re|] eqn:Er; [|intros H; apply yields_ret in H; discriminate].
    destruct (assignable (d_env d) re le) eqn:Ea.
    - destruct (is_basic re && identical false le re) eqn:Eb.
      + intros H. apply yields_ret in H. injection H as <-. apply andb_true_iff in Eb as [E1 E2]. eapply SCopy; eassumption.
      + intros H. apply yields_bind in H as (tn & _ & H). apply yields_ret in H. injection H as <-. eapply SLoop; eassumption.
    - destruct (o_typecast o && convertible (d_env d) re le) eqn:Et.
      + intros H. apply yields_bind in H as (tn & _ & H). apply yields_ret in H. injection H as <-.
        apply andb_true_iff in Et as [E1 E2]. eapply SConvert; eassumption.
      + intros H. apply yields_ret in H. discriminate.
  Qed.

  Lemma match_field_skip fuel lhs rhs args :
    should_skip (o_skip o) (matcher_expr lhs) (o_exact o) = MBool true ->
    match_field d o mpos fuel lhs rhs args = ret (Some (ASkip lhs)).
  Proof. intros Hs. unfold match_field, match_field_with. now rewrite Hs. Qed.

  Lemma match_field_conv fuel lhs rhs args c :
    should_skip (o_skip o) (matcher_expr lhs) (o_exact o) = MBool false ->
    find (fun c => ident_match (fc_dst c) (matcher_expr lhs) true) (o_conv o) = Some c ->
    match_field d o mpos fuel lhs rhs args =
      (doR a <- create_with_converter d o mpos lhs rhs c; ret (Some a)).
  Proof. intros Hs Hc. unfold match_field, match_field_with. now rewrite Hs, Hc. Qed.

  Lemma match_field_map fuel lhs rhs args m :
    should_skip (o_skip o) (matcher_expr lhs) (o_exact o) = MBool false ->
    find (fun c => ident_match (fc_dst c) (matcher_expr lhs) true) (o_conv o) = None ->
    find (fun m => ident_match (nm_dst m) (matcher_expr lhs) true) (o_map o) = Some m ->
    match_field d o mpos fuel lhs rhs args =
      (doR a <- create_with_mapper d o mpos lhs rhs m; ret (Some a)).
  Proof. intros Hs Hc Hm. unfold match_field, match_field_with. now rewrite Hs, Hc, Hm. Qed.

  Lemma match_field_literal fuel lhs rhs args l :
    should_skip (o_skip o) (matcher_expr lhs) (o_exact o) = MBool false ->
    find (fun c => ident_match (fc_dst c) (matcher_expr lhs) true) (o_conv o) = None ->
    find (fun m => ident_match (nm_dst m) (matcher_expr lhs) true) (o_map o) = None ->
    find (fun m => ident_match (nm_dst m) (matcher_expr lhs) true) (o_tmap o) = None ->
    find (fun l => ident_match (ls_dst l) (matcher_expr lhs) true) (o_lit o) = Some l ->
    match_field d o mpos fuel lhs rhs args = ret (Some (ASimple lhs (RLiteral (ls_literal l)) false)).
  Proof. intros Hs Hc Hm Ht Hl. unfold match_field, match_field_with. now rewrite Hs, Hc, Hm, Ht, Hl. Qed.

  (** the stderr line of a field left over: "<line>:<col>: no assignment for <path> [<type>]" *)
  Definition warning_in (lhs : node) : Prop :=
    exists pos tn,
      In (EvStderr (at_pos' pos (s2b "no assignment for " ++ assign_expr lhs ++ s2b " [" ++ tn ++ s2b "]"))) EV.

  Lemma no_match_warn_shape pos lhs a :
    yields EV (no_match_warn d pos lhs) a -> a = ANoMatch lhs /\ warning_in lhs.
  Proof.
    unfold no_match_warn. intros H.
    apply yields_bind in H as (tn & _ & H). apply yields_bind in H as (u & Hw & H).
    apply yields_ret in H as <-. split; [reflexivity|]. exists pos, tn.
    destruct Hw as (ev & Hw & Hin). injection Hw as _ <-. apply Hin. now left.
  Qed.

  (** createWithConverter, createWithMapper and createWithTemplatedMapper share their last step:
      the expression found becomes the assignment, none found is reported `no match` *)
  Lemma found_or_no_match pos lhs (found : res (option node)) (mk : node -> assignment) a :
    yields EV (doR x <- found; match x with Some n => ret (mk n) | None => no_match_warn d pos lhs end) a ->
    (a = ANoMatch lhs /\ warning_in lhs) \/ exists n, yields EV found (Some n) /\ a = mk n.
  Proof.
    intros H. apply yields_bind in H as ([n|] & Hf & H).
    - apply yields_ret in H. right. eauto.
    - left. now apply no_match_warn_shape in H.
  Qed.

  (** the converter call: its argument comes from the resolved source, which yields no
      error of its own, fitted to the parameter type; where it is written as &arg
      (pointer parameter, non-pointer argument fitted to the pointed-to type) the
      argument is an addressable expression *)
  Definition conv_arg_ok (c : field_converter) (src arg : node) : Prop :=
    cast_shape src (fc_arg c) arg \/
    (is_ptr (fc_arg c) = true /\ cast_shape src (deref_ptr (fc_arg c)) arg /\
     (is_ptr (expr_type arg) = true \/ addressable arg = true)).

  Lemma create_with_converter_shape lhs rhs c a :
    yields EV (create_with_converter d o mpos lhs rhs c) a ->
    (a = ANoMatch lhs /\ warning_in lhs) \/
    exists src arg n, resolve_expr d (fc_src c) (node_root rhs) = Some src /\ returns_error src = false /\
      conv_arg_ok c src arg /\
      a = ASimple lhs (RNode n) (fc_err c) /\ cast_shape (NConv arg c) (expr_type lhs) n.
  Proof.
    intros H. apply found_or_no_match in H as [H|(n & Hn & ->)]; [now left|right].
    destruct (resolve_expr d (fc_src c) (node_root rhs)) as [src|]; [|apply yields_ret in Hn; discriminate].
    destruct (returns_error src) eqn:Ere; [apply yields_ret in Hn; discriminate|].
    apply yields_bind in Hn as (a1 & Ha1 & Hn). apply yields_bind in Hn as ([arg|] & Harg & Hn);
      [|apply yields_ret in Hn; discriminate].
    exists src, arg, n. repeat split; [exact Ere| |eapply cast_node_shape; exact Hn].
    destruct a1 as [a1|].
    - apply yields_ret in Harg. injection Harg as <-. left. eapply cast_node_shape; exact Ha1.
    - destruct (is_ptr (fc_arg c)) eqn:Ep; cbn [negb] in Harg; [|apply yields_ret in Harg; discriminate].
      apply yields_bind in Harg as ([a2|] & Ha2 & Harg); [|apply yields_ret in Harg; discriminate].
      destruct (negb (is_ptr (expr_type a2)) && negb (addressable a2)) eqn:Ead;
        apply yields_ret in Harg; [discriminate|]. injection Harg as <-.
      right. split; [exact Ep|]. split; [eapply cast_node_shape; exact Ha2|].
      apply andb_false_iff in Ead as [Ead|Ead]; apply negb_false_iff in Ead; auto.
  Qed.

  Lemma create_with_mapper_shape lhs rhs m a :
    yields EV (create_with_mapper d o mpos lhs rhs m) a ->
    (a = ANoMatch lhs /\ warning_in lhs) \/
    exists src n, resolve_expr d (nm_src m) (node_root rhs) = Some src /\
                  a = ASimple lhs (RNode n) (returns_error n) /\ cast_shape src (expr_type lhs) n.
  Proof.
    intros H. apply found_or_no_match in H as [H|(n & Hn & ->)]; [now left|right].
    destruct (resolve_expr d (nm_src m) (node_root rhs)) as [src|]; [|apply yields_ret in Hn; discriminate].
    exists src, n. repeat split. eapply cast_node_shape; exact Hn.
  Qed.

  Lemma create_with_templated_shape lhs rhs args m a :
    yields EV (create_with_templated d o mpos lhs rhs args m) a ->
    (a = ANoMatch lhs /\ warning_in lhs) \/
    exists src n, resolve_templated d (nm_src m) (rhs :: args) = Some src /\
                  a = ASimple lhs (RNode n) (returns_error n) /\ cast_shape src (expr_type lhs) n.
  Proof.
    intros H. apply found_or_no_match in H as [H|(n & Hn & ->)]; [now left|right].
    destruct (resolve_templated d (nm_src m) (rhs :: args)) as [src|]; [|apply yields_ret in Hn; discriminate].
    exists src, n. repeat split. eapply cast_node_shape; exact Hn.
  Qed.
End BuilderProofs.
