(** C08 — function signatures follow the documented style/recv/reverse/error shapes. *)
From Coq Require Import String.
From Cvg Require Import Base GoTypes Dump Options Front Builder Gen.
From Cvg.proofs Require Import HeaderProofs.
From Cvg Require Import GoFuns.
From Cvg.proofs Require Import GenTieProofs.
Open Scope N_scope.

(** The header FuncToString prints is the documented shape
    ([documented_header], written independently in HeaderProofs.v) of the
    function record's operands — for every function record. *)
Theorem C08_header_shape :
  forall f, func_header f =
    documented_header (fn_name f) (fn_receiver f) (fn_style f) (fn_ret_err f)
      (operand_of (fn_src f)) (operand_of (fn_dst f)) (List.map operand_of (fn_args f)).
Proof. exact func_header_documented. Qed.
Print Assumptions C08_header_shape.

(** ... and CreateFunction fills those operands as documented, for every method,
    option set and dump on which it succeeds: the function is named after the
    method; receiver, style and error flag come from the method's options and
    results; declared names are kept, else src/dst (swapped under :reverse) —
    the receiver name replaces the source's; pointer-ness is the declared one;
    types are the package-qualified names of the operand types; one variable per
    additional argument. *)
Theorem C08_operands :
  forall d fuel m comments f ev,
    create_function d fuel m comments = (Ok f, ev) ->
    exists src_t arg_ts src_n arg_ns dst_t dst_n rts rns,
      sg_ptys (me_sig m) = src_t :: arg_ts /\ sg_pnames (me_sig m) = src_n :: arg_ns /\
      sg_rtys (me_sig m) = dst_t :: rts /\ sg_rnames (me_sig m) = dst_n :: rns /\
      fn_name f = md_name (me_decl m) /\
      fn_receiver f = o_receiver (me_opts m) /\
      fn_style f = o_style (me_opts m) /\
      fn_ret_err f = me_ret_error d m /\
      v_name (fn_dst f) = declared_name dst_n (if o_reverse (me_opts m) then s2b "src" else s2b "dst") /\
      type_name d (deref_ptr dst_t) = Ok (v_type (fn_dst f)) /\ v_pointer (fn_dst f) = is_ptr dst_t /\
      v_name (fn_src f) = (match o_receiver (me_opts m) with
                           | [] => declared_name src_n (if o_reverse (me_opts m) then s2b "dst" else s2b "src")
                           | r => r end) /\
      type_name d (deref_ptr src_t) = Ok (v_type (fn_src f)) /\ v_pointer (fn_src f) = is_ptr src_t /\
      List.length (fn_args f) = Nat.min (List.length arg_ns) (List.length arg_ts).
Proof. exact create_function_operands. Qed.
Print Assumptions C08_operands.

(** :reverse with additional arguments is rejected. (:reverse without :style arg
    is rejected by parse_notations; a receiver of an imported type by create_function:
    both are exercised by the complete enumeration of the harness.) *)
Theorem C08_reverse_with_arguments_rejected :
  forall d fuel m comments src_t a arg_ts,
    sg_ptys (me_sig m) = src_t :: a :: arg_ts -> o_reverse (me_opts m) = true ->
    sg_pnames (me_sig m) <> [] -> sg_rtys (me_sig m) <> [] -> sg_rnames (me_sig m) <> [] ->
    exists msg ev, create_function d fuel m comments = (Err msg, ev).
Proof. exact reverse_with_arguments_rejected. Qed.
Print Assumptions C08_reverse_with_arguments_rejected.

(** Non-vacuity: a concrete record and its header. *)
Example C08_example :
  func_header {| fn_name := s2b "Conv"; fn_comments := []; fn_receiver := s2b "r";
                 fn_src := {| v_name := s2b "r"; v_type := s2b "S"; v_pointer := true; v_external := false |};
                 fn_dst := {| v_name := s2b "dst"; v_type := s2b "ext.D"; v_pointer := false; v_external := true |};
                 fn_args := [{| v_name := s2b "arg0"; v_type := s2b "int"; v_pointer := false; v_external := false |}];
                 fn_ret_err := true; fn_style := style_arg; fn_assignments := []; fn_pre := None; fn_post := None |}
  = s2b "func (r *S) Conv(dst *ext.D, arg0 int) (err error) {" ++ nl.
Proof. vm_compute. reflexivity. Qed.

(** Tie to the source, as in props/C01.v ([C01_text_is_what_the_go_code_prints]): the function text the
    theorems of this file speak about is what the translated Go code computes, for every function record. *)
Theorem C08_text_is_what_the_go_code_prints :
  forall f, GoGen.FuncToString (lower_function f) = func_to_string f.
Proof. exact func_to_string_tie. Qed.
Print Assumptions C08_text_is_what_the_go_code_prints.
