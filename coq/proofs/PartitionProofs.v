(** PartitionProofs.v — every accessible destination field is accounted for
    exactly once (C05): the assignment list produced by structToStruct covers
    the field list of the destination struct in order. *)
From Cvg Require Import Base GoTypes Dump Builder.
From Cvg.proofs Require Import BuilderProofs MatchProofs.
Open Scope N_scope.

Section Partition.
  Variable d : dump.
  Let E := d_env d.

  (** [about f a]: entry [a] accounts for destination node [f] — an assignment,
      skip or no-match on [f] itself, or a non-empty member-wise block covering
      [f]'s own fields.  [covers L fs l]: the entries [l] account, in order, for
      the field nodes [fs] of struct node [L]: hidden fields have no entry, each
      accessible field has exactly one, except a by-value struct field all of
      whose accessible members are themselves such structs (no leaf below it),
      which the code drops without an entry. *)
  Inductive about : node -> assignment -> Prop :=
  | AbSkip f : about f (ASkip f)
  | AbNoMatch f : about f (ANoMatch f)
  | AbSimple f r e : about f (ASimple f r e)
  | AbSlice f r t : about f (ASlice f r t)
  | AbSliceLoop f r t : about f (ASliceLoop f r t)
  | AbSliceCast f r t c : about f (ASliceCast f r t c)
  | AbNest f cs : cs <> [] -> covers f (field_nodes d f) cs -> about f (ANest cs)
  with covers : node -> list node -> list assignment -> Prop :=
  | CvNil L : covers L [] []
  | CvHidden L f fs l :
      is_field_accessible d L (obj_name f) = false -> covers L fs l -> covers L (f :: fs) l
  | CvEntry L f fs a l :
      is_field_accessible d L (obj_name f) = true -> about f a -> covers L fs l -> covers L (f :: fs) (a :: l)
  | CvLeafless L f fs l :
      is_field_accessible d L (obj_name f) = true ->
      is_struct_type E (expr_type f) = true -> covers f (field_nodes d f) [] ->
      covers L fs l -> covers L (f :: fs) l.

  Scheme about_mut := Induction for about Sort Prop
    with covers_mut := Induction for covers Sort Prop.

  (** the answer for one field: an entry about it, or none for a by-value struct without a leaf below *)
  Definition field_result (f : node) (a : option assignment) : Prop :=
    match a with
    | Some x => about f x
    | None => is_struct_type E (expr_type f) = true /\ covers f (field_nodes d f) []
    end.

  (** C05, the partition theorem: for every fuel, destination and source
      struct nodes and additional arguments, whenever structToStruct returns,
      its entries cover the destination's fields. *)
  Theorem struct_to_struct_covers o mpos fuel L R args l ev :
    struct_to_struct d o mpos fuel L R args = (Ok l, ev) -> covers L (field_nodes d L) l.
  Proof.
    intros H. apply yields_intro in H. revert H.
    apply (struct_to_struct_ind d o mpos ev field_result covers); cbn [field_result].
    (* the cases: a leaf entry; a descent; no field left; a hidden field; a field with its answer *)
    - intros f a [ | | | |r a0 []]; constructor.
    - intros f [|c cs] Hs Hc; [now split|]. now constructor.
    - exact CvNil.
    - exact CvHidden.
    - intros L0 f fs [a|] l0 Ha Hr Hc; [now apply CvEntry|]. destruct Hr. now apply CvLeafless.
  Qed.

  Lemma covers_length L fs l : covers L fs l -> (List.length l <= List.length fs)%nat.
  Proof. induction 1; simpl; lia. Qed.

  (** the field a top-level entry is about; a member-wise block has none *)
  Fixpoint subject (a : assignment) : option node :=
    match a with
    | ASkip l | ANoMatch l | ASimple l _ _ | ASlice l _ _ | ASliceLoop l _ _ | ASliceCast l _ _ _ => Some l
    | ANest _ => None
    end.

  Lemma about_subject f a n : about f a -> subject a = Some n -> n = f.
  Proof. destruct 1; simpl; congruence. Qed.

  (** a hidden field is the subject of no entry *)
  Lemma covers_subjects L fs l :
    covers L fs l -> forall a n, In a l -> subject a = Some n ->
    In n fs /\ is_field_accessible d L (obj_name n) = true.
  Proof.
    induction 1 as [|L f fs l Hh Hc IH|L f fs a l Ha Hab Hc IH|L f fs l Ha Hs Hc0 _ Hc IH]; intros x n Hin Hsub.
    - destruct Hin.
    - destruct (IH _ _ Hin Hsub). split; [now right|assumption].
    - destruct Hin as [<-|Hin].
      + apply (about_subject _ _ _ Hab) in Hsub as ->. split; [now left|assumption].
      + destruct (IH _ _ Hin Hsub). split; [now right|assumption].
    - destruct (IH _ _ Hin Hsub). split; [now right|assumption].
  Qed.
End Partition.
