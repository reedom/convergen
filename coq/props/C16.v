(** C16 — slice fields are copied into fresh storage, nil stays nil.
    Static part proved here: which block sliceToSlice chooses and when an
    element conversion is allowed. The emitted blocks (`if src != nil { dst =
    make(T, len(src)); copy / for-range }`) allocate with make and never assign
    in the nil branch; their run-time behaviour (fresh backing array, same
    length, element-wise equal, nil stays nil) is checked by executing every
    generated function of the slice-biased stream on nil / empty / non-empty
    slices (harness check C16). *)
From Coq Require Import String.
From Cvg Require Import Base GoTypes Dump Options Builder Gen ValSem.
From Cvg.proofs Require Import BuilderProofs ValSemProofs.
From Cvg Require Import GoFuns.
From Cvg.proofs Require Import GenTieProofs.
From Cvg.proofs Require Import UtilTieProofs.
Open Scope N_scope.

(** copy() only between identical basic element types; a plain element loop when
    the source element is assignable; a converting loop only with :typecast and
    only between convertible element types; nothing else. *)
Theorem C16_block_choice :
  forall d o lhs rhs a ev,
    slice_to_slice d o lhs rhs = (Ok (Some a), ev) ->
    exists le re, slice_elem (expr_type lhs) = Some le /\ slice_elem (expr_type rhs) = Some re /\
      ((exists t, a = ASlice lhs rhs t /\ assignable (d_env d) re le = true /\ is_basic re = true /\ identical false le re = true) \/
       (exists t, a = ASliceLoop lhs rhs t /\ assignable (d_env d) re le = true) \/
       (exists t c, a = ASliceCast lhs rhs t c /\ o_typecast o = true /\ convertible (d_env d) re le = true /\
                    assignable (d_env d) re le = false)).
Proof.
  intros d o lhs rhs a ev H. apply yields_intro, slice_to_slice_shape in H.
  destruct H as [le re t|le re t|le re t c]; exists le, re; eauto 12.
Qed.
Print Assumptions C16_block_choice.

(** every slice block starts with the nil guard and allocates with make: the text printed for it *)
Theorem C16_block_text :
  forall l r t, assignment_string (ASlice l r t) =
    s2b "if " ++ assign_expr r ++ s2b " != nil {" ++ nl ++
    assign_expr l ++ s2b " = make(" ++ t ++ s2b ", len(" ++ assign_expr r ++ s2b "))" ++ nl ++
    s2b "copy(" ++ assign_expr l ++ s2b ", " ++ assign_expr r ++ s2b ")" ++ nl ++ s2b "}" ++ nl.
Proof. reflexivity. Qed.
Print Assumptions C16_block_text.

(** Dynamic part, in the value semantics of ValSem.v: executing a slice block
    on a non-nil source stores a slice whose backing address is the allocation
    counter's next value (fresh: no earlier object has it), with the source's
    elements in order (same length); on a nil source the state is left exactly
    as it was (the destination field keeps its previous value, the counter does
    not move).  Stated for the loop block; in ValSem.v the copy block executes the same way. *)
Theorem C16_block_semantics :
  forall ev conv l r t d next,
    (exists w, read d (node_path l) = Some w) ->
    match ev (RNode r) with
    | VSlice _ es =>
        read (fst (exec_a ev conv (ASliceLoop l r t) (d, next))) (node_path l) = Some (VSlice next es) /\
        snd (exec_a ev conv (ASliceLoop l r t) (d, next)) = next + 1
    | _ => exec_a ev conv (ASliceLoop l r t) (d, next) = (d, next)
    end.
Proof. exact slice_block. Qed.
Print Assumptions C16_block_semantics.

(** Tie to the source, as in props/C01.v ([C01_text_is_what_the_go_code_prints]): the function text the
    theorems of this file speak about is what the translated Go code computes, for every function record. *)
Theorem C16_text_is_what_the_go_code_prints :
  forall f, GoGen.FuncToString (lower_function f) = func_to_string f.
Proof. exact func_to_string_tie. Qed.
Print Assumptions C16_text_is_what_the_go_code_prints.

(** Tie to the source: what makes a field a slice field (util.IsSliceType: the type itself, not its underlying type). [GoUtil.IsSliceType] etc. are /repo's pkg/util/types.go
    translated on every run (a type assertion to a class of go/types is the recogniser of the model's
    constructor); the model's predicates are proved equal to them. *)
Theorem C16_type_predicates_are_the_go_code :
  forall t,
    GoUtil.IsSliceType t = is_slice t /\ GoUtil.IsBasicType t = is_basic t /\ GoUtil.IsNamedType t = is_named t /\
    GoUtil.IsPtr t = is_ptr t /\ GoUtil.DerefPtr t = deref_ptr t /\ GoUtil.Deref t = (deref_ptr t, is_ptr t).
Proof.
  intros t.
  exact (conj (is_slice_tie t) (conj (is_basic_tie t) (conj (is_named_tie t) (conj (is_ptr_tie t) (conj (deref_ptr_tie t) (deref_tie t)))))).
Qed.
Print Assumptions C16_type_predicates_are_the_go_code.
