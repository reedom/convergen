(** C11 — the rest of the setup file is carried over intact. *)
From Coq Require Import String.
From Cvg Require Import Base Dump Options Front BaseCode.
From Cvg.gen Require Extracted.
From Cvg.proofs Require Import BaseCodeProofs CutProofs.
Open Scope N_scope.

(** The only comments GenerateBaseCode removes from the file are those the
    directive regexp (taken from the source by the translator) recognises; every
    other comment of every group is kept (membership; [remove_directives] is a filter per group,
    so the order is kept by construction). *)
Theorem C11_only_directives_removed :
  forall gs c, In c (List.concat (remove_directives gs)) <-> In c (List.concat gs) /\ is_build_or_generate (c_text c) = false.
Proof. exact remove_directives_comment. Qed.
Print Assumptions C11_only_directives_removed.

(** The directive spellings of the property are recognised ... *)
Theorem C11_directives_recognised :
  is_build_or_generate (s2b "//go:build convergen") = true /\
  is_build_or_generate (s2b "// +build convergen") = true /\
  is_build_or_generate (s2b "//go:generate go run github.com/reedom/convergen@v0.7.0") = true /\
  is_build_or_generate (s2b "//go:build convergen && linux") = true /\
  is_build_or_generate (s2b "// Package pk is documented.") = false.
Proof. exact directive_recognised. Qed.
Print Assumptions C11_directives_recognised.

(** ... but not every build-constraint spelling: the full statement ("the
    convergen build constraint is absent from the output") is refuted by a
    compound constraint naming convergen second (known finding). *)
Theorem C11_no_constraint_left_refuted :
  exists t, is_prefix (s2b "//go:build") t = true /\ occurs (s2b "convergen") t = true /\ is_build_or_generate t = false.
Proof. exists (s2b "//go:build linux && convergen"). vm_compute. repeat split. Qed.
Print Assumptions C11_no_constraint_left_refuted.

(** The doc comment of a generated function holds no notation line: after the
    method's notations have been extracted, every comment left in its doc group
    is a non-notation comment of the original group. *)
Theorem C11_function_doc_has_no_notation :
  forall st node gi nots st',
    extract_notations st (Some (node, gi)) = (nots, st') ->
    (N.to_nat gi < List.length (st_groups st))%nat ->
    forall c, In c (group_of st' gi) -> is_notation c = false /\ In c (group_of st gi).
Proof. exact extract_notations_no_notation_left. Qed.
Print Assumptions C11_function_doc_has_no_notation.

(** In place: generateContent replaces the first occurrence of an interface's
    marker by its functions, leaving everything before and after as printed. *)
Theorem C11_functions_replace_marker_in_place :
  forall m text pre post,
    m <> [] ->
    (forall k, (k < List.length pre)%nat -> is_prefix m (skipn k (pre ++ m ++ post)) = false) ->
    replace_first m text (pre ++ m ++ post) = pre ++ text ++ post.
Proof. exact replace_first_spec. Qed.
Print Assumptions C11_functions_replace_marker_in_place.

(** The cut (the regexp .+M.*(\n|.)*?M replaced by M) and the replacement together: in a
    printed text where the marker M occurs exactly twice — after a non-empty line start L
    ("type X ") and after anything X (the rest of the interface, on the same line or on any
    number of lines) — everything from the start of that line through the second marker is
    replaced by the functions; every byte before ([pre], which ends a line or is empty) and
    after ([post]) is kept. *)
Theorem C11_interface_replaced_in_place :
  forall m pre L X post fn,
    m <> [] -> no_nl m -> L <> [] -> no_nl L ->
    (pre = [] \/ exists p, pre = p ++ [10]) ->
    (forall k, occ m (pre ++ L ++ m ++ X ++ m ++ post) k = true ->
               k = (List.length pre + List.length L)%nat \/
               k = (List.length pre + (List.length L + List.length m + List.length X))%nat) ->
    replace_first m fn (cut m (pre ++ L ++ m ++ X ++ m ++ post)) = pre ++ fn ++ post.
Proof.
  intros m pre L X post fn Hm Hmnl HL HLnl Hpre Honly. rewrite cut_law by assumption.
  apply replace_first_spec; [exact Hm|]. intros k Hk.
  (* a marker that starts inside [pre] ends inside it too, so the text before the cut had it as well *)
  destruct (skipn_in_lines pre k Hpre Hk) as (l & Hl & E).
  destruct (is_prefix m (skipn k (pre ++ m ++ post))) eqn:Ho; [exfalso|reflexivity].
  rewrite E in Ho. apply is_prefix_before_nl in Ho; [|exact Hmnl].
  destruct (Honly k); [|lia..]. unfold occ. rewrite E. now apply is_prefix_extend.
Qed.
Print Assumptions C11_interface_replaced_in_place.

(** The output starts with the generated-code header of the source. *)
Theorem C11_header :
  forall printed blocks, is_prefix Extracted.header_literal (assemble_texts printed blocks) = true.
Proof. intros. unfold assemble_texts. apply is_prefix_app. Qed.
Print Assumptions C11_header.
(** go/printer (between marker insertion and the cut), goimports and gofmt are
    oracles: the whole output file is reproduced byte for byte from this model
    plus those three on every generated layout (correspondence of check C11). *)
