(** Base.v — byte strings, the outcome monad, s-expressions.
    Everything here is total, computable Gallina; no axioms. *)
From Coq Require Import Ascii String.
From Coq Require Export List NArith ZArith Bool Lia.
Export ListNotations.
Open Scope N_scope.

(** * Byte strings.  A [str] is a list of bytes (each < 256 by convention);
    runes (after UTF-8 decoding) are also [N]. *)
Definition str := list N.

Definition s2b (s : string) : str :=
  List.map N_of_ascii (list_ascii_of_string s).

Definition nl : str := [10].

Fixpoint str_eqb (a b : str) : bool :=
  match a, b with
  | [], [] => true
  | x :: a', y :: b' => N.eqb x y && str_eqb a' b'
  | _, _ => false
  end.

Fixpoint is_prefix (p s : str) : bool :=
  match p, s with
  | [], _ => true
  | x :: p', y :: s' => N.eqb x y && is_prefix p' s'
  | _ :: _, [] => false
  end.

Definition is_suffix (p s : str) : bool := is_prefix (rev p) (rev s).

Fixpoint concat_str (l : list str) : str :=
  match l with [] => [] | x :: l' => x ++ concat_str l' end.

Fixpoint join_str (sep : str) (l : list str) : str :=
  match l with
  | [] => []
  | [x] => x
  | x :: l' => x ++ sep ++ join_str sep l'
  end.

(** [split_on c s]: strings.Split(s, string(c)) for a one-byte separator:
    always returns at least one element. *)
Fixpoint split_on (c : N) (s : str) : list str :=
  match s with
  | [] => [[]]
  | x :: s' =>
      if N.eqb x c then [] :: split_on c s'
      else match split_on c s' with
           | [] => [[x]]          (* unreachable *)
           | h :: t => (x :: h) :: t
           end
  end.

(** last index of byte [c] in [s], if any (strings.LastIndex for one byte). *)
Fixpoint last_index_aux (c : N) (s : str) (i : nat) (acc : option nat) : option nat :=
  match s with
  | [] => acc
  | x :: s' => last_index_aux c s' (S i) (if N.eqb x c then Some i else acc)
  end.
Definition last_index (c : N) (s : str) : option nat := last_index_aux c s 0%nat None.

Fixpoint mem_str (x : str) (l : list str) : bool :=
  match l with [] => false | y :: l' => str_eqb x y || mem_str x l' end.

(** Does [m] occur in [s] (as a contiguous substring)? *)
Fixpoint occurs (m s : str) : bool :=
  is_prefix m s || match s with [] => false | _ :: s' => occurs m s' end.

(** Whitespace as in Go's unicode.IsSpace restricted to ASCII: space, \t, \n, \v, \f, \r. *)
Definition is_space_byte (c : N) : bool :=
  (N.eqb c 32) || (N.eqb c 9) || (N.eqb c 10) || (N.eqb c 11) || (N.eqb c 12) || (N.eqb c 13).

(** strings.Fields on ASCII whitespace. *)
Fixpoint fields_aux (s : str) (cur : str) : list str :=
  match s with
  | [] => match cur with [] => [] | _ => [rev cur] end
  | x :: s' =>
      if is_space_byte x then
        match cur with [] => fields_aux s' [] | _ => rev cur :: fields_aux s' [] end
      else fields_aux s' (x :: cur)
  end.
Definition fields (s : str) : list str := fields_aux s [].

(** Decimal rendering of naturals. *)
Fixpoint dec_aux (fuel : nat) (n : N) (acc : str) : str :=
  match fuel with
  | O => acc
  | S f =>
      let d := 48 + N.modulo n 10 in
      let q := N.div n 10 in
      if N.eqb q 0 then d :: acc else dec_aux f q (d :: acc)
  end.
Definition dec (n : N) : str := dec_aux (S (N.to_nat (N.log2 n))) n [].

(** * Outcome monad: explicit partiality of the Go code. *)
Inductive outcome (A : Type) : Type :=
| Ok (a : A)
| Err (msg : str)          (* the Go code returned an error *)
| Panic (site : str)       (* the Go code would panic at [site] *)
| Fuel                     (* the model ran out of fuel (excluded by the termination lemmas) *)
| Unsup (why : str).       (* the input leaves the modelled fragment (counted out-of-model) *)
Arguments Ok {A} a.
Arguments Err {A} msg.
Arguments Panic {A} site.
Arguments Fuel {A}.
Arguments Unsup {A} why.

Definition obind {A B} (m : outcome A) (f : A -> outcome B) : outcome B :=
  match m with
  | Ok a => f a
  | Err e => Err e
  | Panic s => Panic s
  | Fuel => Fuel
  | Unsup w => Unsup w
  end.
Notation "'do' x <- m ; f" := (obind m (fun x => f))
  (at level 200, x pattern, m at level 100, f at level 200, right associativity).

Definition is_panic {A} (o : outcome A) : bool :=
  match o with Panic _ => true | _ => false end.
Definition is_ok {A} (o : outcome A) : bool :=
  match o with Ok _ => true | _ => false end.

Definition option_bind {A B} (m : option A) (f : A -> option B) : option B :=
  match m with Some a => f a | None => None end.
Notation "'let?' x := m 'in' f" := (option_bind m (fun x => f))
  (at level 200, x pattern, m at level 100, f at level 200, right associativity).

(** * S-expressions: the exchange format between the harness and the model. *)
Inductive sexp : Type :=
| Atom (s : str)
| SList (l : list sexp).

Definition atom_of (e : sexp) : option str :=
  match e with Atom s => Some s | SList _ => None end.
Definition list_of (e : sexp) : option (list sexp) :=
  match e with SList l => Some l | Atom _ => None end.

(** decimal atom -> N *)
Fixpoint parse_dec_aux (s : str) (acc : N) : option N :=
  match s with
  | [] => Some acc
  | c :: s' => if (48 <=? c) && (c <=? 57) then parse_dec_aux s' (acc * 10 + (c - 48)) else None
  end.
Definition parse_dec (s : str) : option N :=
  match s with [] => None | _ => parse_dec_aux s 0 end.

Definition num_of (e : sexp) : option N :=
  let? s := atom_of e in parse_dec s.
Definition bool_of (e : sexp) : option bool :=
  let? n := num_of e in Some (negb (N.eqb n 0)).

Fixpoint map_opt {A B} (f : A -> option B) (l : list A) : option (list B) :=
  match l with
  | [] => Some []
  | x :: l' => let? y := f x in let? ys := map_opt f l' in Some (y :: ys)
  end.

Definition sx_bool (b : bool) : sexp := Atom (if b then [49] else [48]).
Definition sx_num (n : N) : sexp := Atom (dec n).
Definition sx_tag (t : string) (l : list sexp) : sexp := SList (Atom (s2b t) :: l).

(** nth with explicit failure (Go: index out of range). *)
Definition nth_opt {A} (l : list A) (i : nat) : option A := nth_error l i.

Fixpoint find_idx_aux {A} (p : A -> bool) (l : list A) (i : nat) : option nat :=
  match l with
  | [] => None
  | x :: l' => if p x then Some i else find_idx_aux p l' (S i)
  end.
Definition find_idx {A} (p : A -> bool) (l : list A) : option nat := find_idx_aux p l 0%nat.

Lemma str_eqb_refl s : str_eqb s s = true.
Proof. induction s as [|x s IH]; simpl; [reflexivity|]. now rewrite N.eqb_refl, IH. Qed.

Lemma str_eqb_eq a b : str_eqb a b = true <-> a = b.
Proof.
  split; [|intros <-; apply str_eqb_refl].
  revert b; induction a as [|x a IH]; intros [|y b]; simpl; try easy.
  intros [->%N.eqb_eq ->%IH]%andb_true_iff. reflexivity.
Qed.

Lemma str_eqb_neq a b : str_eqb a b = false <-> a <> b.
Proof. rewrite <- str_eqb_eq. symmetry. apply not_true_iff_false. Qed.

Lemma mem_str_false_not_in x l : mem_str x l = false -> ~ In x l.
Proof.
  induction l as [|y l IH]; cbn [mem_str]; intros H; [tauto|].
  apply orb_false_iff in H as [H1 H2]. intros [->|Hin]; [now rewrite str_eqb_refl in H1|now apply IH].
Qed.

Lemma is_prefix_app p s : is_prefix p (p ++ s) = true.
Proof. induction p as [|x p IH]; simpl; [reflexivity|]. now rewrite N.eqb_refl. Qed.

Lemma is_prefix_spec p s : is_prefix p s = true <-> exists t, s = p ++ t.
Proof.
  split; [|intros [t ->]; apply is_prefix_app].
  revert s; induction p as [|x p IH]; intros s; simpl; [now exists s|].
  destruct s as [|y s]; [discriminate|].
  intros [->%N.eqb_eq [t ->]%IH]%andb_true_iff. now exists t.
Qed.

Lemma skipn_length_app {A} (a b : list A) : skipn (List.length a) (a ++ b) = b.
Proof. now rewrite skipn_app, skipn_all, Nat.sub_diag. Qed.

Lemma forallb_map {A B} (f : A -> B) g l : forallb (fun x => g (f x)) l = forallb g (List.map f l).
Proof. induction l as [|x l IH]; cbn; [reflexivity|now rewrite IH]. Qed.

Lemma existsb_map {A B} (f : A -> B) g l : existsb (fun x => g (f x)) l = existsb g (List.map f l).
Proof. induction l as [|x l IH]; cbn; [reflexivity|now rewrite IH]. Qed.

Lemma obind_ok {A B} (m : outcome A) (g : A -> outcome B) b :
  obind m g = Ok b -> exists a, m = Ok a /\ g a = Ok b.
Proof. destruct m; try discriminate. eauto. Qed.
