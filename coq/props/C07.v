(** C07 — errors from user functions are returned, never swallowed or outrun. *)
From Coq Require Import String.
From Cvg Require Import Base Options Builder Gen Sem.
From Cvg.proofs Require Import HeaderProofs SemProofs.
From Cvg Require Import GoFuns.
From Cvg.proofs Require Import GenTieProofs.
Open Scope N_scope.

(** The emitted text is the doc lines, the header and the texts of the statement
    list [body_of f] — so statements about [body_of f] are statements about the
    generated function. *)
Theorem C07_text_is_the_statement_list :
  forall f, func_to_string f =
    concat_str (List.map (fun c => c ++ nl) (fn_comments f)) ++ func_header f ++ pp (body_of f) ++ s2b "}" ++ nl ++ nl.
Proof. exact func_to_string_is_pp. Qed.
Print Assumptions C07_text_is_the_statement_list.

(** Dynamic part. For every function record f, every assignment of errors to
    call sites [fails] and every call trace so far: executing the body from a
    nil err returns the error of the FIRST error-capable call (converter,
    error-returning getter, pre/post hook — top-level or inside member-wise
    blocks) that fails, with the trace ending at that very call (nothing is
    called after it); and if none fails the result is nil ([spec]). *)
Theorem C07_first_error_returned :
  forall (E : Type) (fails : site -> option E) f tr,
    exec E fails (body_of f) None tr = spec E fails (body_of f) tr.
Proof. intros E fails f tr. apply exec_is_spec. apply body_units. Qed.
Print Assumptions C07_first_error_returned.

(** Static part: a function without error result contains no error-returning
    assignment at any depth (CreateFunction rejects it), and a hook that returns
    an error is rejected in a method without error result. *)
Theorem C07_no_error_source_without_result :
  forall d fuel m comments f ev,
    create_function d fuel m comments = (Ok f, ev) -> fn_ret_err f = false ->
    find_error_assignment (fn_assignments f) = None.
Proof.
  intros d fuel m comments f ev H. apply create_function_ok in H. tauto.
Qed.
Print Assumptions C07_no_error_source_without_result.

Theorem C07_error_hook_needs_error_result :
  forall d m src_t dst_t arg_ts g ev,
    build_manipulator d (Some m) src_t dst_t arg_ts false = (Ok g, ev) -> mp_ret_err m = false.
Proof.
  intros d m src_t dst_t arg_ts g ev H. unfold build_manipulator in H.
  destruct (mp_ret_err m); [|reflexivity].
  destruct (negb (str_eqb _ []) && negb (mp_exported m)); discriminate.
Qed.
Print Assumptions C07_error_hook_needs_error_result.

(** Non-vacuity: two error-returning calls in a row, each with its check; the first fails. *)
Example C07_example :
  let l := [SAssignErr [1] (s2b "f(x)"); SIfErr [2]; SAssignErr [3] (s2b "g(x)"); SIfErr [4]; SReturn [5]] in
  let fails := fun s => if str_eqb s (s2b "f(x)") then Some 7 else None in
  exec N fails l None [] = Returned N (Some 7) [s2b "f(x)"].
Proof. vm_compute. reflexivity. Qed.

(** Tie to the source, as in props/C01.v ([C01_text_is_what_the_go_code_prints]): the function text the
    theorems of this file speak about is what the translated Go code computes, for every function record. *)
Theorem C07_text_is_what_the_go_code_prints :
  forall f, GoGen.FuncToString (lower_function f) = func_to_string f.
Proof. exact func_to_string_tie. Qed.
Print Assumptions C07_text_is_what_the_go_code_prints.
