(** RunProofs.v — the effect machine of Run.v: frame (C15), irrelevance of the old output (C12), histories. *)
From stdpp Require Import gmap.
From Cvg Require Import Cli Run.
From Cvg.proofs Require Import CliProofs.

Section RunProofs.
  Variable gen : fs -> path -> path -> gen_result.
  Variable can_write : path -> bool.
  Notation run := (run gen can_write).

  Lemma run_snd c f :
    snd (run c f) = run_core c can_write (gen (delete (c_output c) f) (c_input c) (c_output c)).
  Proof. reflexivity. Qed.
  Lemma run_fst c f : fst (run c f) = apply_effects f (r_effects (snd (run c f))).
  Proof. reflexivity. Qed.

  Lemma apply_effects_frame (es : list effect) (f : fs) (p : path) :
    (forall e, In e es -> match e with Truncate q => q <> p | WriteFile q _ => q <> p end) ->
    apply_effects f es !! p = f !! p.
  Proof.
    revert f; induction es as [|e es IH]; intros f H; simpl; [reflexivity|].
    rewrite IH by (intros e' He'; apply H; now right).
    specialize (H e (or_introl eq_refl)).
    destruct e as [q|q b]; simpl; now rewrite lookup_insert_ne.
  Qed.

  (** the log file is not the output path *)
  Definition no_alias (c : config) : Prop := c_log c = [] \/ c_log c <> c_output c.

  (** C12: what a run answers depends on the file system only outside the output path. *)
  Lemma run_snd_delete c f f' :
    delete (c_output c) f = delete (c_output c) f' -> snd (run c f) = snd (run c f').
  Proof. rewrite !run_snd. now intros ->. Qed.

  Lemma run_output_irrelevant2 c f x y :
    snd (run c (<[c_output c := x]> f)) = snd (run c (<[c_output c := y]> f)).
  Proof. apply run_snd_delete. now rewrite !delete_insert_delete. Qed.

  (** A successful run that is not dry ends with the write of the generated code. *)
  Lemma run_success c f :
    c_dry c = false -> r_status (snd (run c f)) = 0%N ->
    exists code, gen (delete (c_output c) f) (c_input c) (c_output c) = GenCode code /\
                 r_effects (snd (run c f)) = log_effects c ++ [WriteFile (c_output c) code].
  Proof.
    rewrite run_snd. set (g := gen _ _ _). intros Hd Hs.
    destruct (run_core_cases c can_write g) as [[Hf _]|(code & Hg & E)]; [rewrite Hs in Hf; discriminate|].
    exists code. now rewrite E, Hd.
  Qed.

  (** Without a log, a run does nothing or writes the output once. *)
  Lemma run_nolog_effects c f :
    c_log c = [] ->
    r_effects (snd (run c f)) = [] \/ exists code, r_effects (snd (run c f)) = [WriteFile (c_output c) code].
  Proof.
    rewrite run_snd. set (g := gen _ _ _). intros Hl.
    destruct (run_core_cases c can_write g) as [[_ [E|E]]|(code & _ & E)];
      rewrite E; cbn [r_effects]; rewrite ?log_effects_nolog by exact Hl; auto.
    destruct (c_dry c); eauto.
  Qed.

  Lemma run_delete_output c f :
    c_log c = [] -> delete (c_output c) (fst (run c f)) = delete (c_output c) f.
  Proof.
    intros Hl. rewrite run_fst.
    destruct (run_nolog_effects c f Hl) as [->|[code ->]]; [reflexivity|apply delete_insert_delete].
  Qed.

  (** the output path holds what gen makes of the other files as they are now (what every successful
      non-dry run with a log-less [c] establishes, whatever edits and corruptions came before) *)
  Definition out_consistent (c : config) (f : fs) : Prop :=
    exists code, gen (delete (c_output c) f) (c_input c) (c_output c) = GenCode code /\
                 f !! c_output c = Some code.

  Lemma run_establishes c f :
    c_log c = [] -> c_dry c = false -> r_status (snd (run c f)) = 0%N ->
    out_consistent c (fst (run c f)).
  Proof.
    intros Hl Hd Hs. destruct (run_success c f Hd Hs) as (code & Hg & E).
    exists code. rewrite run_delete_output by exact Hl. split; [exact Hg|].
    rewrite run_fst, E, log_effects_nolog by exact Hl. apply lookup_insert.
  Qed.
End RunProofs.
