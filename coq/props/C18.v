(** C18 — CLI contract: output path, -out, -dry, -print, -log, GOFILE. *)
From Coq Require Import String.
From Cvg Require Import Base Cli.
From Cvg.proofs Require Import CliProofs.
Open Scope N_scope.

(** Default output = input with ".gen" inserted before its extension; the
    extension is that of the last path element ('.'-suffix without '/' or
    another '.'), and stem ++ ext is the input itself. *)
Theorem C18_default_output :
  forall args gofile c v rest,
    parse_args args gofile = CliConfig c ->
    parse_flags flag_defaults args = ArgsOk v rest -> f_out v = [] ->
    c_output c = stem (c_input c) ++ s2b ".gen" ++ path_ext (c_input c) /\
    stem (c_input c) ++ path_ext (c_input c) = c_input c /\
    (path_ext (c_input c) = [] \/
     exists e, path_ext (c_input c) = 46 :: e /\ forall b, In b e -> b <> 47 /\ b <> 46).
Proof.
  intros args gofile c v rest H Hf Ho.
  destruct (parse_args_config _ _ _ _ _ H Hf) as [_ ->]. cbn [c_output c_input]. rewrite Ho.
  split; [reflexivity|]. split; [apply stem_ext|apply path_ext_shape].
Qed.
Print Assumptions C18_default_output.

(** -out redirects the output. *)
Theorem C18_out_overrides :
  forall args gofile c v rest,
    parse_args args gofile = CliConfig c ->
    parse_flags flag_defaults args = ArgsOk v rest -> f_out v <> [] ->
    c_output c = f_out v.
Proof.
  intros args gofile c v rest H Hf Ho.
  destruct (parse_args_config _ _ _ _ _ H Hf) as [_ ->]. cbn [c_output].
  destruct (f_out v); [contradiction|reflexivity].
Qed.
Print Assumptions C18_out_overrides.

(** Without a positional argument the input is $GOFILE; with one, GOFILE is ignored. *)
Theorem C18_gofile :
  forall args gofile c v rest,
    parse_args args gofile = CliConfig c ->
    parse_flags flag_defaults args = ArgsOk v rest ->
    (rest = [] -> c_input c = gofile) /\
    (forall a rest', rest = a :: rest' -> a <> [] -> c_input c = a).
Proof.
  intros args gofile c v rest H Hf.
  destruct (parse_args_config _ _ _ _ _ H Hf) as [_ ->]. cbn [c_input]. split.
  - now intros ->.
  - intros a r -> Ha. destruct a; [contradiction|reflexivity].
Qed.
Print Assumptions C18_gofile.

(** With -print a successful run prints the code that is written (or, with
    -dry, would be written), byte-identically — with or without -dry. *)
Theorem C18_print :
  forall c can_write g,
    c_prints c = true -> r_status (run_core c can_write g) = 0 ->
    exists code, g = GenCode code /\ r_stdout (run_core c can_write g) = code /\
      (c_dry c = false -> In (WriteFile (c_output c) code) (r_effects (run_core c can_write g))).
Proof.
  intros c cw g Hp Hs.
  destruct (run_core_cases c cw g) as [[Hf _]|(code & -> & E)]; [rewrite Hs in Hf; discriminate|].
  exists code. rewrite E. cbn. rewrite Hp. repeat split.
  intros ->. apply in_or_app. right. now left.
Qed.
Print Assumptions C18_print.

(** -log changes neither status, stdout, nor the code written (when the log can be opened). *)
Theorem C18_log_inert :
  forall c can_write g,
    (c_log c <> [] -> can_write (c_log c) = true) ->
    let r := run_core c can_write g in let r0 := run_core (without_log c) can_write g in
    r_status r = r_status r0 /\ r_stdout r = r_stdout r0 /\
    (forall code, In (WriteFile (c_output c) code) (r_effects r) <-> In (WriteFile (c_output c) code) (r_effects r0)).
Proof.
  intros c cw g Hl. unfold run_core, without_log; cbn.
  destruct (c_log c) as [|l0 lt]; [now repeat split|]. rewrite Hl by discriminate.
  (* in every branch the effects are those of the run without log behind the truncation of the log *)
  destruct g as [|raw|code]; [| |destruct (c_dry c); [|destruct (cw (c_output c))]]; cbn;
    (repeat split; [now intros [[=]|H]|now right]).
Qed.
Print Assumptions C18_log_inert.

(** The log path is the output path with its extension replaced by ".log". *)
Theorem C18_log_path :
  forall args gofile c v rest,
    parse_args args gofile = CliConfig c ->
    parse_flags flag_defaults args = ArgsOk v rest ->
    c_log c = if f_log v then stem (c_output c) ++ s2b ".log" else [].
Proof.
  intros args gofile c v rest H Hf. now destruct (parse_args_config _ _ _ _ _ H Hf) as [_ ->].
Qed.
Print Assumptions C18_log_path.

(** Non-vacuity: a concrete command line meets the hypotheses. *)
Example C18_example :
  parse_args [s2b "-log"; s2b "-print"; s2b "a/b.c/setup.go"] (s2b "ignored.go")
  = CliConfig {| c_input := s2b "a/b.c/setup.go"; c_output := s2b "a/b.c/setup.gen.go";
                 c_log := s2b "a/b.c/setup.gen.log"; c_dry := false; c_prints := true |}.
Proof. vm_compute. reflexivity. Qed.
Example C18_example_noext :
  parse_args [s2b "a.b/setup"] [] = CliConfig {| c_input := s2b "a.b/setup"; c_output := s2b "a.b/setup.gen";
                 c_log := []; c_dry := false; c_prints := false |}.
Proof. vm_compute. reflexivity. Qed.
