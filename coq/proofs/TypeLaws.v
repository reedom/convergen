(** TypeLaws.v — the model of go/types' relations satisfies the laws the Go specification states
    for them: identity is reflexive, identical types are assignable, assignable
    types are convertible. (A sanity layer under the correspondence, which validates the
    relations against go/types itself on every run.) *)
From Cvg Require Import Base GoTypes.
Open Scope N_scope.

Section TyInd.
  Variable P : ty -> Prop.
  Hypothesis Hbasic : forall k n, P (TBasic k n).
  Hypothesis Hnamed : forall i, P (TNamed i).
  Hypothesis Hptr : forall s e, P e -> P (TPtr s e).
  Hypothesis Hslice : forall s e, P e -> P (TSlice s e).
  Hypothesis Harray : forall s n e, P e -> P (TArray s n e).
  Hypothesis Hmap : forall s k v, P k -> P v -> P (TMap s k v).
  Hypothesis Hchan : forall s d e, P e -> P (TChan s d e).
  Hypothesis Hstruct : forall s fs, Forall (fun f => P (f_type f)) fs -> P (TStruct s fs).
  Definition sig_all (sg : sig) : Prop := Forall P (sg_ptys sg) /\ Forall P (sg_rtys sg).
  Hypothesis Hiface : forall s ms, Forall (fun m => let 'Meth _ _ _ sg := m in sig_all sg) ms -> P (TIface s ms).
  Hypothesis Hfunc : forall s sg, sig_all sg -> P (TFunc s sg).
  Hypothesis Hother : forall s, P (TOther s).

  Fixpoint ty_ind_nested (t : ty) : P t :=
    let tys := fix tys (l : list ty) : Forall P l :=
      match l with [] => Forall_nil _ | x :: l' => Forall_cons _ (ty_ind_nested x) (tys l') end in
    let sg_ok (sg : sig) : sig_all sg :=
      match sg with Sig pn pt rn rt v => conj (tys pt) (tys rt) end in
    match t with
    | TBasic k n => Hbasic k n
    | TNamed i => Hnamed i
    | TPtr s e => Hptr s e (ty_ind_nested e)
    | TSlice s e => Hslice s e (ty_ind_nested e)
    | TArray s n e => Harray s n e (ty_ind_nested e)
    | TMap s k v => Hmap s k v (ty_ind_nested k) (ty_ind_nested v)
    | TChan s d e => Hchan s d e (ty_ind_nested e)
    | TStruct s fs =>
        Hstruct s fs ((fix fl (l : list field) : Forall (fun f => P (f_type f)) l :=
                         match l with
                         | [] => Forall_nil _
                         | Field n p e m tg ft :: l' => Forall_cons (Field n p e m tg ft) (ty_ind_nested ft) (fl l')
                         end) fs)
    | TIface s ms =>
        Hiface s ms ((fix ml (l : list meth) : Forall (fun m => let 'Meth _ _ _ sg := m in sig_all sg) l :=
                        match l with
                        | [] => Forall_nil _
                        | Meth n p e sg :: l' => Forall_cons (Meth n p e sg) (sg_ok sg) (ml l')
                        end) ms)
    | TFunc s sg => Hfunc s sg (sg_ok sg)
    | TOther s => Hother s
    end.
End TyInd.

Lemma identical_refl igt : forall t, identical igt t t = true.
Proof.
  (* the comparison of two type lists, a local fixpoint of [identical], spelled as it is there *)
  assert (L : forall l, Forall (fun t => identical igt t t = true) l ->
              (fix id_list (l1 l2 : list ty) {struct l1} : bool :=
                 match l1, l2 with
                 | [], [] => true
                 | x :: l1', y :: l2' => identical igt x y && id_list l1' l2'
                 | _, _ => false
                 end) l l = true).
  { induction 1 as [|x l Hx _ IHl]; [reflexivity|]. now rewrite Hx, IHl. }
  apply ty_ind_nested; cbn [identical];
    try solve [intros; rewrite ?andb_true_iff; auto using N.eqb_refl, str_eqb_refl].
  - intros s fs H. induction H as [|[n p e m tg ft] l Hf _ IH]; [reflexivity|].
    cbn [f_type] in Hf. rewrite !str_eqb_refl, Bool.eqb_reflx, Hf, !orb_true_r. exact IH.
  - intros s ms H. induction H as [|[n p e [pn pt rn rt v]] l [Hp Hr] _ IH]; [reflexivity|].
    cbn [sg_ptys sg_rtys] in Hp, Hr.
    rewrite !str_eqb_refl, Bool.eqb_reflx, orb_true_r, (L _ Hp), (L _ Hr). exact IH.
  - intros s [pn pt rn rt v] [Hp Hr]. cbn [sg_ptys sg_rtys] in *.
    now rewrite Bool.eqb_reflx, (L _ Hp), (L _ Hr).
Qed.

Lemma assignable_of_identical E V T : identical false V T = true -> assignable E V T = true.
Proof. intros H. unfold assignable. now rewrite H. Qed.

Lemma assignable_refl E t : assignable E t t = true.
Proof. apply assignable_of_identical, identical_refl. Qed.

Lemma convertible_of_assignable E V T : assignable E V T = true -> convertible E V T = true.
Proof. intros H. unfold convertible. now rewrite H. Qed.

Lemma convertible_refl E t : convertible E t t = true.
Proof. apply convertible_of_assignable, assignable_refl. Qed.
