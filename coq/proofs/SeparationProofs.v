(** SeparationProofs.v — the partition of the destination's fields (C05) makes
    the written paths of different entries independent, which is the hypothesis
    of the value/frame theorems of ValSemProofs.v (C02). *)
From Cvg Require Import Base Dump Builder ValSem.
From Cvg.proofs Require Import PartitionProofs ValSemProofs.
Open Scope N_scope.

Lemma prefix_app p q : is_path_prefix p (p ++ q) = true.
Proof. induction p as [|x p IH]; simpl; [reflexivity|]. now rewrite str_eqb_refl. Qed.

Lemma prefix_refl p : is_path_prefix p p = true.
Proof. rewrite <- (app_nil_r p) at 2. apply prefix_app. Qed.

Lemma prefix_spec p q : is_path_prefix p q = true -> exists t, q = p ++ t.
Proof.
  revert q; induction p as [|x p IH]; intros q H; [now exists q|]. destruct q as [|y q]; [discriminate|].
  cbn in H. apply andb_true_iff in H as [->%str_eqb_eq [t ->]%IH]. now exists t.
Qed.

Lemma prefix_trans p q r : is_path_prefix p q = true -> is_path_prefix q r = true -> is_path_prefix p r = true.
Proof. intros [t ->]%prefix_spec [t' ->]%prefix_spec. rewrite <- app_assoc. apply prefix_app. Qed.

Lemma prefix_cancel P a b : is_path_prefix (P ++ a) (P ++ b) = is_path_prefix a b.
Proof. induction P as [|x P IH]; [reflexivity|]. cbn. now rewrite str_eqb_refl. Qed.

(** extensions of P ++ [x] and P ++ [y] with x <> y are independent *)
Lemma diverging_independent P x y p q :
  str_eqb x y = false ->
  is_path_prefix (P ++ [x]) p = true -> is_path_prefix (P ++ [y]) q = true -> independent p q.
Proof.
  intros Hxy [t1 ->]%prefix_spec [t2 ->]%prefix_spec. rewrite <- !app_assoc.
  assert (Hyx : str_eqb y x = false) by (apply str_eqb_neq; apply str_eqb_neq in Hxy; congruence).
  split; rewrite prefix_cancel; cbn; now rewrite ?Hxy, ?Hyx.
Qed.

Section Separation.
  Variable d : dump.

  (** every path an entry about f may write extends f's own path *)
  Lemma about_paths_extend :
    forall f a, about d f a -> forall p, In p (wpaths a) -> is_path_prefix (node_path f) p = true.
  Proof.
    apply (about_mut d
      (fun f a _ => forall p, In p (wpaths a) -> is_path_prefix (node_path f) p = true)
      (fun L fs l _ => (forall f, In f fs -> exists g, f = NField L g) ->
                       forall a p, In a l -> In p (wpaths a) -> is_path_prefix (node_path L) p = true));
      cbn [wpaths].
    (* the six kinds of leaf entry write the path of their own field at most *)
    1-6: cbn; intros; intuition subst; apply prefix_refl.
    - intros f cs Hne Hc IH p Hp. apply in_concat in Hp as (ps & Hps & Hp).
      apply in_map_iff in Hps as (c & <- & Hc'). eapply IH; [|exact Hc'|exact Hp].
      intros f' Hf'. apply in_map_iff in Hf' as (g & <- & _). eauto.
    - intros L _ a p [].
    - intros L f fs l _ _ IH Hfs. apply IH. auto using in_cons.
    - intros L f fs a l _ Hab IHa _ IHc Hfs x p [<-|Hx] Hp; [|eapply IHc; eauto using in_cons].
      destruct (Hfs f (or_introl eq_refl)) as (g & ->). eapply prefix_trans; [apply prefix_app|exact (IHa p Hp)].
    - intros L f fs l _ _ _ _ _ IHc Hfs. apply IHc. auto using in_cons.
  Qed.

  Definition names (fs : list node) : list str := List.map obj_name fs.

  (** covered entries of a field list with pairwise different names write independent paths *)
  Lemma covers_separated :
    forall L fs l, covers d L fs l ->
      (forall f, In f fs -> exists g, f = NField L g) ->
      (forall f1 f2 fs1 fs2 fs3, fs = fs1 ++ f1 :: fs2 ++ f2 :: fs3 -> str_eqb (obj_name f1) (obj_name f2) = false) ->
      separated l /\
      (forall a p, In a l -> In p (wpaths a) -> exists f, In f fs /\ is_path_prefix (node_path f) p = true).
  Proof.
    induction 1 as [L|L f fs l Hh Hc IH|L f fs a l Ha Hab Hc IH|L f fs l Ha Hs Hc0 _ Hc IH]; intros Hfs Hnd;
      [split; [exact I|intros a p []]|..].
    (* in the three cases with a field [f] in front, the claim holds for the rest, weakened to [f :: fs] *)
    all: destruct IH as [IH1 IH2];
      [intros f' Hf'; apply Hfs; now right
      |intros f1 f2 fs1 fs2 fs3 E; apply (Hnd f1 f2 (f :: fs1) fs2 fs3); cbn; now rewrite E|].
    all: assert (IH2' : forall x p, In x l -> In p (wpaths x) ->
                        exists f', In f' (f :: fs) /\ is_path_prefix (node_path f') p = true)
      by (intros x p Hx Hp; destruct (IH2 x p Hx Hp) as (f' & Hf' & Hpre); exists f'; split; [now right|exact Hpre]).
    - now split.
    - split.
      + split; [|exact IH1]. intros p b q Hp Hb Hq.
        destruct (IH2 b q Hb Hq) as (f' & Hf' & Hpre').
        pose proof (about_paths_extend f a Hab p Hp) as Hpre.
        destruct (Hfs f (or_introl eq_refl)) as (g & ->). destruct (Hfs f' (or_intror Hf')) as (g' & ->).
        apply in_split in Hf' as (fs2 & fs3 & ->).
        eapply diverging_independent; [|exact Hpre|exact Hpre'].
        apply (Hnd (NField L g) (NField L g') [] fs2 fs3). reflexivity.
      + intros x p [<-|Hx] Hp; [|exact (IH2' x p Hx Hp)]. exists f. split; [now left|]. eapply about_paths_extend; eassumption.
    - now split.
  Qed.
End Separation.
