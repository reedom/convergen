(** ValSemProofs.v — frame and value theorems for ValSem.exec_all (C02, C16). *)
From Cvg Require Import Base Builder ValSem.
From Cvg.proofs Require Import BuilderProofs.
Open Scope N_scope.

Lemma fields_get_set_same fs f x w : fields_get fs f = Some w -> fields_get (fields_set fs f x) f = Some x.
Proof.
  induction fs as [|[n v] fs IH]; simpl; [discriminate|].
  destruct (str_eqb n f) eqn:E; simpl; rewrite E; [reflexivity|exact IH].
Qed.

Lemma fields_get_set_other fs f g x : str_eqb f g = false -> fields_get (fields_set fs f x) g = fields_get fs g.
Proof.
  intros Hfg. induction fs as [|[n v] fs IH]; simpl; [reflexivity|].
  destruct (str_eqb n f) eqn:E; simpl.
  - apply str_eqb_eq in E as ->. rewrite Hfg. reflexivity.
  - destruct (str_eqb n g); [reflexivity|exact IH].
Qed.

Lemma read_write_same v p x : (exists w, read v p = Some w) -> read (write v p x) p = Some x.
Proof.
  revert v; induction p as [|f p IH]; intros v [w Hw]; simpl in *; [reflexivity|].
  destruct v as [a| |a es|fs]; try discriminate.
  destruct (fields_get fs f) as [u|] eqn:E; [|discriminate].
  rewrite (fields_get_set_same _ _ _ _ E). apply IH. eauto.
Qed.

(** a write below p leaves everything at independent paths as it was *)
Lemma read_write_independent v p q x : independent p q -> read (write v p x) q = read v q.
Proof.
  revert v q; induction p as [|f p IH]; intros v q [H1 H2]; [simpl in H1; discriminate|].
  destruct q as [|g q]; [simpl in H2; discriminate|].
  simpl in *. destruct v as [a| |a es|fs]; try reflexivity.
  destruct (fields_get fs f) as [u|] eqn:E; [|reflexivity].
  destruct (str_eqb f g) eqn:Efg.
  - apply str_eqb_eq in Efg as <-. rewrite (fields_get_set_same _ _ _ _ E), E.
    rewrite str_eqb_refl in H2. simpl in H1, H2. apply IH. unfold independent. split; assumption.
  - rewrite (fields_get_set_other _ _ _ _ Efg). reflexivity.
Qed.

Lemma write_keeps_readable v p x q : independent p q -> (exists w, read v q = Some w) -> exists w, read (write v p x) q = Some w.
Proof. intros Hi [w Hw]. exists w. now rewrite read_write_independent. Qed.

Section Frame.
  Variable ev : rhs_expr -> val.
  Variable conv : str -> val -> val.

  Notation exec_a := (exec_a ev conv).
  Notation exec_all := (exec_all ev conv).

  Lemma exec_slice_frame d next l r f q :
    independent (node_path l) q -> read (fst (exec_slice ev d next l r f)) q = read d q.
  Proof.
    intros H. unfold exec_slice. destruct (ev (RNode r)); try reflexivity. now apply read_write_independent.
  Qed.

  Lemma exec_slice_next d next l r f : next <= snd (exec_slice ev d next l r f).
  Proof. unfold exec_slice. destruct (ev (RNode r)); simpl; lia. Qed.

  (** ** frame: a path independent of everything an entry may write is untouched *)
  Lemma exec_a_frame : forall a st q,
    (forall p, In p (wpaths a) -> independent p q) -> read (fst (exec_a a st)) q = read (fst st) q.
  Proof.
    induction a as [l|l|l r e|cs IH|l r t|l r t|l r t c] using assignment_nest_ind; intros st q Hq; simpl in *;
      try reflexivity; try (apply exec_slice_frame, Hq; now left).
    - apply read_write_independent, Hq. now left.
    - revert st. induction IH as [|c cs Hc _ IHcs]; intros st; [reflexivity|].
      simpl in Hq. rewrite IHcs, Hc; [reflexivity|intros p Hp; apply Hq, in_or_app; auto..].
  Qed.

  Lemma exec_all_frame l : forall st q,
    (forall a p, In a l -> In p (wpaths a) -> independent p q) -> read (fst (exec_all l st)) q = read (fst st) q.
  Proof.
    induction l as [|a l IH]; intros st q Hq; simpl; [reflexivity|].
    rewrite IH, exec_a_frame; [reflexivity|intros p; apply Hq; now left|intros a' p Ha; apply Hq; now right].
  Qed.

  (** the allocation counter only grows: addresses handed out are fresh *)
  Lemma exec_a_next_mono : forall a st, snd st <= snd (exec_a a st).
  Proof.
    induction a as [l|l|l r e|cs IH|l r t|l r t|l r t c] using assignment_nest_ind; intros st; simpl;
      try lia; try apply exec_slice_next.
    revert st. induction IH as [|c cs Hc _ IHcs]; intros st; [lia|].
    specialize (Hc st). specialize (IHcs (exec_a c st)). lia.
  Qed.

  (** an entry list is [separated] when the paths written by different top-level entries are independent;
      then the only writer of a path decides its value *)
  Fixpoint separated (l : list assignment) : Prop :=
    match l with
    | [] => True
    | a :: l' => (forall p b q, In p (wpaths a) -> In b l' -> In q (wpaths b) -> independent p q) /\ separated l'
    end.

  (** a simple assignment at top level: after the whole list ran, its destination holds its source's value *)
  Theorem assigned_value l1 lhs r e l2 st :
    separated (l1 ++ ASimple lhs r e :: l2) ->
    (exists w, read (fst (exec_all l1 st)) (node_path lhs) = Some w) ->
    read (fst (exec_all (l1 ++ ASimple lhs r e :: l2) st)) (node_path lhs) = Some (ev r).
  Proof.
    revert st. induction l1 as [|a l1 IH]; intros st Hs Hr; simpl in *.
    - destruct Hs as [Hs _]. rewrite exec_all_frame.
      + simpl. now apply read_write_same.
      + intros b q Hb Hq. destruct (Hs _ b q (or_introl eq_refl) Hb Hq). now split.
    - destruct Hs as [_ Hs]. apply IH; assumption.
  Qed.

  (** a slice loop at top level: nil source leaves the field as it was; otherwise the field holds a slice
      with a fresh address (the allocation counter's next value) and the source's elements *)
  Theorem slice_block l r t d next :
    (exists w, read d (node_path l) = Some w) ->
    match ev (RNode r) with
    | VSlice _ es =>
        read (fst (exec_a (ASliceLoop l r t) (d, next))) (node_path l) = Some (VSlice next es) /\
        snd (exec_a (ASliceLoop l r t) (d, next)) = next + 1
    | _ => exec_a (ASliceLoop l r t) (d, next) = (d, next)
    end.
  Proof.
    intros Hr. simpl. unfold exec_slice. destruct (ev (RNode r)) as [a| |a es|fs]; try reflexivity.
    simpl. rewrite List.map_id. split; [now apply read_write_same|reflexivity].
  Qed.
End Frame.
