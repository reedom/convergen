(** C03 — well-formed setup files are accepted and every method gets its function.
    Proved here: no method is dropped on success (all-or-nothing parse, one
    function per method). Acceptance of the conventional inputs themselves and
    independence from layout are decided by the correspondence runs (well-formed
    and layout generator streams, whole-file byte comparison through BaseCode.v). *)
From Cvg Require Import Base Dump Front Builder Pipeline BaseCode.
From Cvg.proofs Require Import HeaderProofs FrontProofs BaseCodeProofs CutProofs.
Open Scope N_scope.

Theorem C03_every_method_parsed :
  forall d ms opts st res st' ev,
    parse_methods_loop d ms opts st [] false [] = (Ok res, st', ev) -> List.map me_decl res = ms.
Proof. exact parse_methods_loop_decls. Qed.
Print Assumptions C03_every_method_parsed.

Theorem C03_every_method_gets_a_function :
  forall d st ms fs ev, create_functions d st ms = (Ok fs, ev) ->
    List.map fn_name fs = List.map (fun m => md_name (me_decl m)) ms.
Proof.
  intros d st ms fs ev H. apply create_functions_ok in H.
  induction H as [|m f ms fs [ev' Hf] _ IH]; [reflexivity|]. cbn [List.map]. f_equal; [|exact IH].
  apply create_function_ok in Hf. tauto.
Qed.
Print Assumptions C03_every_method_gets_a_function.

(** Independence from the size of the interface: the opening and the closing
    marker of a converter interface always end up in two comment groups of their
    own, opening before closing, whatever the distance between the braces (one
    very short method included) — provided neither brace lies inside a comment.
    (Before the repair the closing marker was appended to the opening marker's
    group whenever the braces were less than 21 bytes apart.) *)
Theorem C03_two_markers_two_groups :
  forall gs m mn mx,
    mn < mx ->
    (forall g, In g gs -> ~ spans g mx) -> (forall g, In g gs -> ~ spans g mn) ->
    exists l1 l2 l3,
      insert_comment (insert_comment gs (marker_comment m mx)) (marker_comment m mn)
      = l1 ++ [marker_comment m mn] :: l2 ++ [marker_comment m mx] :: l3 /\ gs = l1 ++ l2 ++ l3.
Proof. exact two_markers_two_groups. Qed.
Print Assumptions C03_two_markers_two_groups.

(** Independence from what lies between the braces: once printed, the interface is cut
    out whatever its size — the second marker may follow on the same line (a one-line
    interface with one very short method) or any number of lines later, with any bytes in
    between (comments, blank lines, further methods) as long as the marker itself occurs
    only twice. *)
Theorem C03_cut_independent_of_interface_size :
  forall m pre L X post,
    m <> [] -> no_nl m -> L <> [] -> no_nl L ->
    (pre = [] \/ exists p, pre = p ++ [10]) ->
    (forall k, occ m (pre ++ L ++ m ++ X ++ m ++ post) k = true ->
               k = (List.length pre + List.length L)%nat \/
               k = (List.length pre + (List.length L + List.length m + List.length X))%nat) ->
    cut m (pre ++ L ++ m ++ X ++ m ++ post) = pre ++ m ++ post.
Proof. exact cut_law. Qed.
Print Assumptions C03_cut_independent_of_interface_size.
