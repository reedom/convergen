(** MatcherProofs.v — the matchers of Matcher.v: IdentMatcher is (fold) equality; a PatternMatcher's
    answers over any query sequence are those of a fresh matcher (C19). *)
From Coq Require Import String.
From Cvg Require Import Base Re Unicode Matcher.
From Cvg.proofs Require Import ReProofs ReFuelProofs.
Open Scope N_scope.

(** IdentMatcher: equality, or Unicode simple-fold equality rune by rune. *)
Lemma ident_match_spec p s ex :
  ident_match p s ex = true <-> (if ex then p = s else str_equal_fold p s = true).
Proof. unfold ident_match. destruct ex; [apply str_eqb_eq|tauto]. Qed.

(** The invariant of a matcher: its compiled form is the compilation of its
    pattern under its current case rule, and it is not nil. *)
Definition pm_inv (m : pmatcher) : Prop :=
  pm_re m = compile_pattern (pm_pattern m) (pm_exact m) /\ pm_re m <> CNil.

Lemma new_pmatcher_inv p ex m : new_pmatcher p ex = Some m -> pm_inv m /\ pm_pattern m = p.
Proof.
  unfold new_pmatcher. destruct (compile_pattern p ex) eqn:E; try discriminate;
    intros H; injection H as <-; (split; [split; simpl; [now rewrite E|discriminate]|reflexivity]).
Qed.

Definition validity_case_independent (p : str) : Prop :=
  compile_pattern p true = CNil <-> compile_pattern p false = CNil.

(** It holds of every pattern: prefixing "(?i)" changes neither whether the expression parses nor
    whether it is inside the modelled fragment (ReProofs.v), and the parser never exhausts its
    fuel (ReFuelProofs.v).  So recompiling a valid pattern under the other rule never yields nil. *)
Lemma validity_case_independent_always p : validity_case_independent p.
Proof.
  unfold validity_case_independent, compile_pattern.
  change (pattern_expr p false) with (s2b "(?i)" ++ pattern_expr p true).
  pose proof (case_prefix_keeps_validity UT (pattern_expr p true) (parse_re_never_out_of_fuel UT _)) as H.
  destruct (parse_re UT (pattern_expr p true)), (parse_re UT (s2b "(?i)" ++ pattern_expr p true));
    cbn [pclass] in H; try discriminate H; split; congruence.
Qed.

Lemma pm_match_step m i ex :
  pm_inv m ->
  fst (pm_match m i ex) = pure_match (pm_pattern m) i ex /\
  pm_inv (snd (pm_match m i ex)) /\ pm_pattern (snd (pm_match m i ex)) = pm_pattern m.
Proof.
  intros [Hre Hnn]. pose proof (validity_case_independent_always (pm_pattern m)) as V. unfold pm_match, pure_match.
  destruct (Bool.eqb (pm_exact m) ex) eqn:Eb.
  - apply Bool.eqb_prop in Eb. subst ex. rewrite <- Hre.
    destruct (pm_re m) eqn:E; simpl; repeat split; congruence.
  - assert (Hne : compile_pattern (pm_pattern m) ex <> CNil).
    { intros Hc. apply Hnn. rewrite Hre.
      destruct (pm_exact m), ex; try discriminate Eb; [apply V in Hc|apply V]; assumption. }
    destruct (compile_pattern (pm_pattern m) ex) eqn:E; try contradiction; simpl;
      repeat split; simpl; congruence.
Qed.

Fixpoint pm_answers (m : pmatcher) (qs : list (str * bool)) : list mresult :=
  match qs with
  | [] => []
  | (i, ex) :: qs' => fst (pm_match m i ex) :: pm_answers (snd (pm_match m i ex)) qs'
  end.

Lemma pm_stateless m qs :
  pm_inv m -> pm_answers m qs = List.map (fun q => pure_match (pm_pattern m) (fst q) (snd q)) qs.
Proof.
  revert m; induction qs as [|[i ex] qs IH]; intros m Hi; simpl; [reflexivity|].
  destruct (pm_match_step m i ex Hi) as (H1 & H2 & H3).
  rewrite H1, IH; [now rewrite H3|assumption].
Qed.
