(** WarnProofs.v — every `no match` entry has its warning (C05): for each ANoMatch in
    the (nested) assignment list structToStruct returns, the run's stderr events contain
    a positioned line "<line>:<col>: no assignment for <path> [<type>]". *)
From Cvg Require Import Base Options Builder.
From Cvg.proofs Require Import BuilderProofs MatchProofs.
Open Scope N_scope.

Fixpoint nomatches (a : assignment) : list node :=
  match a with
  | ANoMatch l => [l]
  | ANest cs => (fix go (cs : list assignment) : list node :=
                   match cs with [] => [] | c :: cs' => nomatches c ++ go cs' end) cs
  | _ => []
  end.
Fixpoint nomatches_list (l : list assignment) : list node :=
  match l with [] => [] | a :: l' => nomatches a ++ nomatches_list l' end.

Lemma nomatches_nest cs : nomatches (ANest cs) = nomatches_list cs.
Proof. reflexivity. Qed.

Lemma rbind_ok' {A B} (m : res A) (f : A -> res B) b ev :
  rbind m f = (Ok b, ev) -> exists a ev1 ev2, m = (Ok a, ev1) /\ f a = (Ok b, ev2) /\ ev = ev1 ++ ev2.
Proof. apply rbind_ok. Qed.

(** C05: whenever structToStruct returns, every `no match` entry of its (nested) result has a
    positioned warning among the events of the run. *)
Theorem struct_to_struct_warned d o mpos fuel L R args l ev :
  struct_to_struct d o mpos fuel L R args = (Ok l, ev) ->
  forall n, In n (nomatches_list l) -> warning_in ev n.
Proof.
  intros H. apply yields_intro in H. revert H.
  apply (struct_to_struct_ind d o mpos ev
           (fun _ r => forall n, In n (match r with Some a => nomatches a | None => [] end) -> warning_in ev n)
           (fun _ _ l => forall n, In n (nomatches_list l) -> warning_in ev n)).
  (* the cases: a leaf entry; a descent; no field left; a hidden field; a field with its answer *)
  - intros f a [|Hw| t|src m e Hm|r a0 []] n []; subst; [exact Hw|contradiction].
  - intros f [|c cs] _ Hc; [intros n []|]. rewrite nomatches_nest. exact Hc.
  - intros L0 n [].
  - auto.
  - intros L0 f fs [a|] l0 _ Hr Hl; [|exact Hl]. cbn [nomatches_list]. intros n Hn.
    apply in_app_iff in Hn as [Hn|Hn]; auto.
Qed.
