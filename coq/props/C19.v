(** C19 — name and pattern matchers: equality, case folding, RE2 search, statelessness. *)
From Coq Require Import String.
From Cvg Require Import Base Re Unicode Matcher.
From Cvg.proofs Require Import ReFuelProofs MatcherProofs.
From Cvg Require Import GoFuns.
From Cvg.proofs Require Import MatcherTieProofs.
Open Scope N_scope.

(** :map / :conv / :literal paths (IdentMatcher): equality under the exact rule,
    Unicode simple-fold equality (strings.EqualFold) otherwise — for all byte strings. *)
Theorem C19_ident :
  forall p s ex, ident_match p s ex = true <-> (if ex then p = s else str_equal_fold p s = true).
Proof. exact ident_match_spec. Qed.
Print Assumptions C19_ident.

Theorem C19_parser_fuel_suffices : forall e, parse_re UT e <> PFuel.
Proof. exact (parse_re_never_out_of_fuel UT). Qed.
Print Assumptions C19_parser_fuel_suffices.

Theorem C19_validity_case_independent : forall p, validity_case_independent p.
Proof. exact validity_case_independent_always. Qed.
Print Assumptions C19_validity_case_independent.

(** A matcher's answers over ANY query sequence alternating the case rule are those of
    a fresh matcher for (pattern, path, rule): no dependence on earlier queries — for
    every pattern, with no side condition. Behind it: prefixing "(?i)" changes neither
    validity nor the modelled fragment ([C19_validity_case_independent], by simulation of
    two runs of the mutually recursive parser that differ in the flags in force and in
    spare fuel, ReProofs.v), and the parser never exhausts the fuel regexp.Compile's model
    gives it ([C19_parser_fuel_suffices], a measure argument over every branch of the
    parser and of the class-body parser, ReFuelProofs.v), so recompiling on a rule
    change never yields nil. *)
Theorem C19_stateless :
  forall p ex0 m qs,
    new_pmatcher p ex0 = Some m ->
    pm_answers m qs = List.map (fun q => pure_match p (fst q) (snd q)) qs.
Proof.
  intros p ex0 m qs H. destruct (new_pmatcher_inv _ _ _ H) as [Hi <-].
  exact (pm_stateless m qs Hi).
Qed.
Print Assumptions C19_stateless.

(** What a fresh matcher answers: search of the parsed expression — "(?i)"
    prefixed when the rule is off, the expression otherwise untouched — in the
    path itself (no lower-casing of either). *)
Theorem C19_regexp_meaning :
  forall p s ex r,
    parse_re UT (pattern_expr p ex) = POk r ->
    pure_match p s ex = MBool (search UT r (decode s)).
Proof. intros p s ex r H. unfold pure_match, compile_pattern. now rewrite H. Qed.
Print Assumptions C19_regexp_meaning.

(** The expression compileRegexp hands to regexp.Compile: what stands between the slashes of a /…/ pattern,
    or the quoted pattern between ^ and $. *)
Theorem C19_expr_shape :
  forall p ex,
    pattern_expr p ex =
      (if ex then [] else s2b "(?i)") ++
      (if is_re_pattern p then firstn (List.length p - 2) (skipn 1 p) else [94] ++ quote_meta p ++ [36]).
Proof. intros p ex. unfold pattern_expr. destruct ex; reflexivity. Qed.
Print Assumptions C19_expr_shape.

(** Non-vacuity / sanity on concrete triples, including the shapes that failed before the repair. *)
Example C19_examples :
  pure_match (s2b "Name") (s2b "name") false = MBool true /\
  pure_match (s2b "Name") (s2b "name") true = MBool false /\
  pure_match (s2b "/^\S+$/") (s2b "ab") false = MBool true /\
  pure_match (s2b "/\PL/") (s2b "ab") false = MBool false /\
  pure_match (s2b "User.Name") (s2b "UserXName") true = MBool false /\
  validity_case_independent (s2b "/\pL/").
Proof.
  repeat apply conj; try reflexivity.
  (* both expressions compile: neither side of the equivalence holds *)
  all: intros H; discriminate H.
Qed.

(** Tie to the source. [GoNode.IdentMatcher_Match], [NameMatcher_Match] and
    [FieldConverter_Match] are /repo's pkg/option ident_matcher.go, name_matcher.go and
    field_converter.go translated statement by statement into gen/GoFuns.v on every run
    (strings.EqualFold is the model's [str_equal_fold], validated against Go by this check):
    the identifier matcher the theorems above speak about is what the Go code computes; a name
    matcher is the conjunction of its two identifier matchers; a :conv entry is looked up
    case-sensitively whatever the case rule. *)
Theorem C19_ident_matcher_is_the_go_code :
  forall pattern paths ident exact,
    GoNode.IdentMatcher_Match {| GoNode.IdentMatcher_pattern := pattern; GoNode.IdentMatcher_paths := paths |} ident exact
    = ident_match pattern ident exact.
Proof. exact ident_match_tie. Qed.
Print Assumptions C19_ident_matcher_is_the_go_code.

Theorem C19_name_matcher_is_the_go_code :
  forall sm dm pos src dst exact,
    GoNode.NameMatcher_Match {| GoNode.NameMatcher_src := sm; GoNode.NameMatcher_dst := dm; GoNode.NameMatcher_pos := pos |} src dst exact
    = ident_match (GoNode.IdentMatcher_pattern sm) src exact && ident_match (GoNode.IdentMatcher_pattern dm) dst exact.
Proof. exact name_matcher_tie. Qed.
Print Assumptions C19_name_matcher_is_the_go_code.

Theorem C19_converter_lookup_is_case_sensitive :
  forall c src dst,
    GoNode.FieldConverter_Match c src dst
    = str_eqb (GoNode.IdentMatcher_pattern (GoNode.NameMatcher_src (GoNode.FieldConverter_m c))) src
      && str_eqb (GoNode.IdentMatcher_pattern (GoNode.NameMatcher_dst (GoNode.FieldConverter_m c))) dst.
Proof. exact converter_match_tie. Qed.
Print Assumptions C19_converter_lookup_is_case_sensitive.

(** ... and the name comparison of the builder's name pass (Options.CompareFieldName, pkg/option/option.go,
    translated on every run) is that identifier comparison: [Builder.compare_field_name] is the same
    expression over the method's case rule. *)
Theorem C19_field_name_comparison_is_the_go_code :
  forall o a b,
    GoNode.Options_CompareFieldName o a b
    = if GoNode.Options_ExactCase o then str_eqb a b else str_equal_fold a b.
Proof. exact compare_field_name_tie. Qed.
Print Assumptions C19_field_name_comparison_is_the_go_code.
